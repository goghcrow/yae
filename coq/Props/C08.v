(* C08 — parsing honours precedence, associativity and fixity for any operator table.  Statements only. *)
From Coq Require Import List String Bool NArith ZArith Sorted.
From Yae Require Import Base.Sexp Model.Lexer Model.Literal Model.Cst Model.Pratt Model.PrattSpec Proofs.C08Proofs.
Import ListNotations.
Local Open Scope Z_scope.

(* operator tokens carry their own name as lexeme (what the lexer produces: kind = lexeme = the operator text) *)
Definition op_lexemes (ts : list token) : Prop :=
  Forall (fun t => existsb (list_eqb (t_kind t)) fixed_kinds = true \/ t_lexeme t = t_kind t) ts.

(* the parser is total: the fuel of the model always suffices *)
Theorem C08_no_fuel : forall ops ts, table_ok ops = true -> parse_tokens ops ts <> PFuel.
Proof. exact C08Proofs.no_fuel_table_ok. Qed.
Print Assumptions C08_no_fuel.

(* an accepted tree yields exactly the token string it was parsed from, and every node records the source span that
   exactly covers its tokens (first token's idx/line/col, last token's end) *)
Theorem C08_yields : forall ops ts e,
  table_ok ops = true -> no_eof ts = true ->
  parse_tokens ops ts = POk e -> yields (new_grammar ops) e ts.
Proof. exact C08Proofs.parse_yields. Qed.
Print Assumptions C08_yields.

Theorem C08_spans : forall g e ts,
  yields g e ts -> ts <> [] /\ expr_pos e = span (tok_pos (hd eof_tok ts)) (tok_pos (last ts eof_tok)).
Proof. exact C08Proofs.yields_span. Qed.
Print Assumptions C08_spans.

(* an operator declared non-associative is never chained with itself without parentheses *)
Theorem C08_nonassoc : forall ops ts e,
  parse_tokens ops ts = POk e -> no_nonassoc_chain e = true.
Proof. exact C08Proofs.parse_nonassoc. Qed.
Print Assumptions C08_nonassoc.

(* the accepted tree is the one the declarations dictate ... *)
Theorem C08_sound : forall ops ts e,
  table_ok ops = true -> no_eof ts = true -> op_lexemes ts ->
  parse_tokens ops ts = POk e -> wfp (new_grammar ops) 0 e = true.
Proof. exact C08Proofs.parse_wfp. Qed.
Print Assumptions C08_sound.

(* ... and every such tree is accepted: the parser returns exactly the well-formed tree yielding the token string;
   anything else is a syntax error *)
(* tokens come in source order (what the lexer produces, C09_partition): pos.Range asserts it *)
Definition idx_sorted (ts : list token) : Prop := StronglySorted (fun a b => (t_idx a <= t_idx b)%N) ts.

Theorem C08_complete : forall ops ts e,
  table_ok ops = true -> no_eof ts = true -> op_lexemes ts -> idx_sorted ts ->
  yields (new_grammar ops) e ts -> wfp (new_grammar ops) 0 e = true ->
  parse_tokens ops ts = POk e.
Proof. exact C08Proofs.parse_complete_partial. Qed.
Print Assumptions C08_complete.

Theorem C08_unique : forall ops ts e1 e2,
  table_ok ops = true -> no_eof ts = true -> op_lexemes ts ->
  yields (new_grammar ops) e1 ts -> wfp (new_grammar ops) 0 e1 = true ->
  yields (new_grammar ops) e2 ts -> wfp (new_grammar ops) 0 e2 = true -> e1 = e2.
Proof. exact C08Proofs.wfp_unique. Qed.
Print Assumptions C08_unique.

(* parentheses: a parenthesised term is closed (well-formed at every level, nothing left open on its right), so
   wrapping a sub-term never changes how its context is parsed *)
Theorem C08_group_closed : forall g p x rbp,
  wfp g 0 x = true -> wfp g rbp (EGroup p x) = true /\ rom g (EGroup p x) = None.
Proof. exact C08Proofs.group_closed. Qed.
Print Assumptions C08_group_closed.

Example C08_example :
  let ops := [mkOp [45%N] 80 1%N; mkOp [45%N] 56 3%N; mkOp [42%N] 64 3%N; mkOp [60%N] 48 2%N] in
  table_ok ops = true /\
  exists e, parse_source ops (runes "a - -b * (c < d)") = POk e /\ wfp (new_grammar ops) 0 e = true /\
            parse_source ops (runes "a < b < c") = PErr.
Proof.
  cbv zeta. split; [vm_compute; reflexivity|].
  eexists. split; [vm_compute; reflexivity|]. split; vm_compute; reflexivity.
Qed.
