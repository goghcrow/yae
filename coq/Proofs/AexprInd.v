(* Induction principle for the nested inductive [aexpr] of Model/Check.v. *)
From Coq Require Import List String.
From Yae Require Import Base.Sexp Model.Ty Model.Lexer Model.Literal Model.Cst Model.Check Proofs.ListFacts.
Import ListNotations.

Section AexprInd.
  Variable P : aexpr -> Prop.
  Hypothesis Hstr : forall v, P (AStr v).
  Hypothesis Hnum : forall t n, P (ANum t n).
  Hypothesis Htime : forall t, P (ATime t).
  Hypothesis Hbool : forall b, P (ABool b).
  Hypothesis Hlist : forall t es, Forall P es -> P (AList t es).
  Hypothesis Hmap : forall t kvs, Forall (fun kv => P (fst kv) /\ P (snd kv)) kvs -> P (AMap t kvs).
  Hypothesis Hobj : forall t fs, Forall (fun f => P (snd f)) fs -> P (AObj t fs).
  Hypothesis Hident : forall c n, P (AIdent c n).
  Hypothesis Hcall : forall c key idx ft f args, P f -> Forall P args -> P (ACall c key idx ft f args).
  Hypothesis Hsub : forall c vt v i, P v -> P i -> P (ASub c vt v i).
  Hypothesis Hmember : forall c ot idx o n, P o -> P (AMember c ot idx o n).

  Fixpoint aexpr_ind' (a : aexpr) : P a :=
    match a with
    | AStr v => Hstr v | ANum t n => Hnum t n | ATime t => Htime t | ABool b => Hbool b
    | AList t es => Hlist t es (Forall_all P aexpr_ind' es)
    | AMap t kvs => Hmap t kvs (Forall_all _ (fun kv => conj (aexpr_ind' (fst kv)) (aexpr_ind' (snd kv))) kvs)
    | AObj t fs => Hobj t fs (Forall_all _ (fun f => aexpr_ind' (snd f)) fs)
    | AIdent c n => Hident c n
    | ACall c key idx ft f args => Hcall c key idx ft f args (aexpr_ind' f) (Forall_all P aexpr_ind' args)
    | ASub c vt v i => Hsub c vt v i (aexpr_ind' v) (aexpr_ind' i)
    | AMember c ot idx o n => Hmember c ot idx o n (aexpr_ind' o)
    end.
End AexprInd.
