(* Proofs for Props/C13.v: operations of a history leave environment objects and existing compiled expressions alone, results of
   invocations / compilations depend only on their own inputs, only print writes to standard output, and rendering a map
   does not depend on the order its entries are held in. *)
From Coq Require Import List Permutation.
From Yae Require Import Model.Ty Model.Lexer Model.Val Model.Render Model.ValSpec Model.Builtins Model.Api Model.History Proofs.ValFacts Proofs.C18Proofs.
Import ListNotations.

Lemma inherit_pure : forall X (e : envobj X) p e',
  inherit e p = Some e' -> eo_ctx e' = eo_ctx e /\ eo_parent e = None /\ inherit e p = Some e'.
Proof.
  intros X e p e' H. unfold inherit in *. destruct (eo_parent e) as [q|] eqn:E; [discriminate|].
  inversion H; subst. repeat split.
Qed.

Definition only_appends (s s' : hstate) : Prop :=
  h_tenvs s' = h_tenvs s /\ h_venvs s' = h_venvs s /\ exists more, h_compiled s' = (h_compiled s ++ more)%list.

Lemma only_appends_same s s' :
  h_tenvs s' = h_tenvs s -> h_venvs s' = h_venvs s -> h_compiled s' = h_compiled s -> only_appends s s'.
Proof. intros Ht Hv Hc. repeat split; try assumption. exists []. rewrite Hc. symmetry. apply app_nil_r. Qed.

Lemma only_appends_trans s1 s2 s3 : only_appends s1 s2 -> only_appends s2 s3 -> only_appends s1 s3.
Proof.
  intros [A1 [B1 [m1 C1]]] [A2 [B2 [m2 C2]]]. repeat split; try congruence.
  exists (m1 ++ m2)%list. rewrite C2, C1. symmetry. apply app_assoc.
Qed.

Lemma hstep_only_appends ops orc s o : only_appends s (fst (hstep ops orc s o)).
Proof.
  destruct o as [i sg|i src j|k j]; unfold hstep.
  - destruct (nth_error (h_engines s) i) as [e|]; apply only_appends_same; reflexivity.
  - destruct (nth_error (h_engines s) i) as [e|], (nth_error (h_tenvs s) j) as [te|];
      try (apply only_appends_same; reflexivity).
    cbv zeta. destruct (inherit te []) as [te'|]; [|apply only_appends_same; reflexivity].
    destruct (api_compile ops orc (en_table (engine_init e)) (eo_ctx te) src) as [[[a code] pool]| |];
      try (apply only_appends_same; reflexivity).
    repeat split. cbn. eexists. reflexivity.
  - destruct (nth_error (h_compiled s) k) as [c|], (nth_error (h_venvs s) j) as [ve|];
      try (apply only_appends_same; reflexivity).
    destruct (inherit ve []) as [ve'|], (api_call ops orc (c_tenv c) (c_code c) (c_pool c) (eo_ctx ve)) as [r t];
      apply only_appends_same; reflexivity.
Qed.

Lemma hrun_cons_fst ops orc s o r : fst (hrun ops orc s (o :: r)) = fst (hrun ops orc (fst (hstep ops orc s o)) r).
Proof.
  cbn [hrun]. destruct (hstep ops orc s o) as [s1 out]. cbn [fst].
  destruct (hrun ops orc s1 r) as [s2 outs]. reflexivity.
Qed.

Lemma inputs_unchanged : forall ops orc s hs,
  let s' := fst (hrun ops orc s hs) in
  h_tenvs s' = h_tenvs s /\ h_venvs s' = h_venvs s /\
  exists more, h_compiled s' = (h_compiled s ++ more)%list.
Proof.
  intros ops orc s hs. change (only_appends s (fst (hrun ops orc s hs))). revert s. induction hs as [|o r IH]; intros s.
  - apply only_appends_same; reflexivity.
  - rewrite hrun_cons_fst. eapply only_appends_trans; [apply hstep_only_appends|apply IH].
Qed.

Lemma invoke_stable : forall ops orc s hs k j,
  (k < len (h_compiled s))%nat ->
  snd (hstep ops orc (fst (hrun ops orc s hs)) (HInvoke k j)) = snd (hstep ops orc s (HInvoke k j)).
Proof.
  intros ops orc s hs k j Hk.
  destruct (inputs_unchanged ops orc s hs) as [_ [Hv [more Hc]]].
  unfold hstep. rewrite Hv, Hc. rewrite nth_error_app1 by exact Hk.
  destruct (nth_error (h_compiled s) k) as [c|]; [|reflexivity].
  destruct (nth_error (h_venvs s) j) as [ve|]; [|reflexivity].
  destruct (inherit ve []) as [ve'|]; [|reflexivity].
  destruct (api_call ops orc (c_tenv c) (c_code c) (c_pool c) (eo_ctx ve)) as [r t]. reflexivity.
Qed.

Lemma compile_local : forall ops orc s1 s2 i j src,
  nth_error (h_engines s1) i = nth_error (h_engines s2) i ->
  option_map (@eo_ctx ty) (nth_error (h_tenvs s1) j) = option_map (@eo_ctx ty) (nth_error (h_tenvs s2) j) ->
  option_map (@eo_parent ty) (nth_error (h_tenvs s1) j) = option_map (@eo_parent ty) (nth_error (h_tenvs s2) j) ->
  snd (hstep ops orc s1 (HCompile i src j)) = snd (hstep ops orc s2 (HCompile i src j)).
Proof.
  intros ops orc s1 s2 i j src He Hc Hp. unfold hstep. rewrite He.
  destruct (nth_error (h_engines s2) i) as [e|]; [|reflexivity].
  destruct (nth_error (h_tenvs s1) j) as [[p1 c1]|]; destruct (nth_error (h_tenvs s2) j) as [[p2 c2]|];
    cbn [option_map eo_ctx eo_parent] in Hc, Hp; try discriminate; [|reflexivity].
  inversion Hc; inversion Hp; subst. cbv zeta.
  destruct (inherit {| eo_parent := p2; eo_ctx := c2 |} []) as [te'|]; [|reflexivity].
  cbn [eo_ctx].
  destruct (api_compile ops orc (en_table (engine_init e)) c2 src) as [[[a code] pool]| |]; reflexivity.
Qed.

Lemma init_idempotent : forall e, engine_init (engine_init e) = engine_init e.
Proof. intros e. unfold engine_init. destruct (en_init e) eqn:E; [rewrite E; reflexivity|reflexivity]. Qed.

Definition quiet {X} (m : M X) : Prop := fst m = [].

Lemma quiet_bind {X Y} (m : M X) (f : X -> M Y) : quiet m -> (forall x, quiet (f x)) -> quiet (mbind m f).
Proof.
  unfold quiet, mbind. destruct m as [t [x|k|k]]; cbn [fst]; intros Ht Hf; try exact Ht.
  subst t. specialize (Hf x). destruct (f x) as [t' o]. cbn [fst] in *. subst t'. reflexivity.
Qed.
(* [ret], the faults and the failures emit nothing, and [mbind] keeps that *)
Lemma bsem_quiet ops orc b args : b <> BPrint -> quiet (bsem ops orc b args).
Proof.
  intros Hb.
  exact (comp_bsem ops orc (@quiet) (fun _ _ => Logic.eq_refl) (@quiet_bind) (fun _ => Logic.eq_refl) (fun _ => Logic.eq_refl) b args
           (fun E => match Hb E with end) (fun _ => Logic.eq_refl) (fun _ => Logic.eq_refl)).
Qed.

Lemma stdout_only_print : forall ops orc b args t o,
  b <> BPrint -> bsem ops orc b args = (t, o) -> forall s, ~ In (EvStdout s) t.
Proof.
  intros ops orc b args t o Hb H s Hin.
  pose proof (bsem_quiet ops orc b args Hb) as Hq. unfold quiet in Hq. rewrite H in Hq. cbn [fst] in Hq.
  subst t. exact Hin.
Qed.

Lemma stringify_map ops t kvs :
  stringify ops (VMap t kvs) = render_kvs (map (fun kv => (fst kv, stringify ops (snd kv))) kvs).
Proof. destruct kvs; reflexivity. Qed.

(* both renderings sort the rendered entries by key, and sorting forgets the order when no key occurs twice *)
Lemma render_perm : forall ops t kvs kvs',
  Permutation kvs kvs' -> nodup_keys (map fst kvs) = true ->
  render ops (VMap t kvs) = render ops (VMap t kvs') /\ stringify ops (VMap t kvs) = stringify ops (VMap t kvs').
Proof.
  intros ops t kvs kvs' Hp Hnd. apply nodup_keys_NoDup in Hnd. split.
  - apply render_map_cong; [exact Hnd|apply Permutation_map, Hp].
  - rewrite !stringify_map. apply render_kvs_perm; [rewrite map_map; exact Hnd|apply Permutation_map, Hp].
Qed.

Print Assumptions inherit_pure.
Print Assumptions inputs_unchanged.
Print Assumptions invoke_stable.
Print Assumptions compile_local.
Print Assumptions init_idempotent.
Print Assumptions stdout_only_print.
Print Assumptions render_perm.
