(* Proofs for Props/C04.v: operators and built-in functions compute their documented results. *)
From Coq Require Import List String Ascii Bool Arith NArith ZArith Lia.
From Yae Require Import Base.Sexp Model.Ty Gen.Generated Model.Num Model.Lexer Model.Literal Model.Val Model.Render
  Model.Builtins Proofs.ListFacts Proofs.ValFacts Proofs.Utf8Facts.
Import ListNotations.
Local Open Scope list_scope.

Lemma all_modelled :
  forallb (fun row => let '(n, ps, r, lz) := row in match classify n ps with Some _ => true | None => false end)
    builtin_sigs = true.
Proof. vm_compute. reflexivity. Qed.

Section Sets.
  Variable ops : numops.

  Lemma valset_inv : forall vs seen,
    NoDup (map fst (valset ops vs seen)) /\
    (forall h, In h (map fst (valset ops vs seen)) -> ~ In h seen) /\
    (forall h v, In (h, v) (valset ops vs seen) -> h = render ops v /\ In v vs) /\
    (forall v, In v vs -> In (render ops v) seen \/ In (render ops v) (map fst (valset ops vs seen))).
  Proof.
    induction vs as [|v0 r IH]; intros seen; cbn [valset]; cbv zeta.
    { split; [constructor|]. split; [intros h []|]. split; [intros h v []|intros v []]. }
    destruct (existsb (list_eqb (render ops v0)) seen) eqn:Ex.
    - destruct (IH seen) as (I1 & I2 & I3 & I4). apply existsb_list_eqb in Ex.
      split; [exact I1|]. split; [exact I2|]. split.
      + intros h v Hin. destruct (I3 h v Hin). simpl. auto.
      + intros v [<-|Hv]; auto.
    - destruct (IH (render ops v0 :: seen)) as (I1 & I2 & I3 & I4).
      assert (~ In (render ops v0) seen) as Hns by (rewrite <- existsb_list_eqb; congruence).
      simpl in *. split; [|split; [|split]].
      + constructor; [|exact I1]. intros Hin. apply (I2 _ Hin). auto.
      + intros h [<-|Hh]; [exact Hns|]. intros Hin. apply (I2 _ Hh). auto.
      + intros h v [[= <- <-]|Hin]; [auto|]. destruct (I3 h v Hin). auto.
      + intros v [<-|Hv]; [auto|]. destruct (I4 v Hv) as [[Hh|Hh]|Hh]; auto.
  Qed.

  Lemma valset_nodup vs : NoDup (map fst (valset ops vs [])).
  Proof. apply valset_inv. Qed.

  Lemma valset_pair vs h v : In (h, v) (valset ops vs []) -> h = render ops v /\ In v vs.
  Proof. apply valset_inv. Qed.

  Lemma valset_keys x h : In h (map fst (valset ops x [])) <-> exists w, In w x /\ render ops w = h.
  Proof.
    destruct (valset_inv x []) as (_ & _ & I3 & I4). split.
    - intros Hin. apply In_keys_pair in Hin. destruct Hin as [w Hw]. destruct (I3 _ _ Hw) as [-> Hx]. eauto.
    - intros (w & Hw & <-). destruct (I4 w Hw) as [[]|Hk]. exact Hk.
  Qed.

  Lemma valset_complete vs v : In v vs -> exists w, In (render ops v, w) (valset ops vs []) /\ render ops v = render ops w.
  Proof.
    intros Hv. destruct (In_keys_pair (render ops v) (valset ops vs [])) as [w Hw]; [apply valset_keys; eauto|].
    exists w. split; [exact Hw|]. apply (valset_pair _ _ _ Hw).
  Qed.

  Lemma keyed_render (s : list (list N * val)) :
    (forall h v, In (h, v) s -> h = render ops v) -> map (render ops) (map snd s) = map fst s.
  Proof.
    induction s as [|[h v] s IH]; intros H; [reflexivity|]. simpl. f_equal.
    - symmetry. apply H. left. reflexivity.
    - apply IH. intros h' v' Hin. apply H. right. exact Hin.
  Qed.

  (* what union appends and difference keeps *)
  Definition unmatched (x y : list val) : list (list N * val) :=
    filter (fun kv => negb (existsb (fun kx : list N * val => list_eqb (fst kx) (fst kv)) (valset ops x []))) (valset ops y []).

  Lemma In_unmatched x y h v :
    In (h, v) (unmatched x y) <-> In (h, v) (valset ops y []) /\ forall w, In w x -> h <> render ops w.
  Proof.
    unfold unmatched. rewrite filter_In. cbn [fst]. rewrite negb_true_iff, <- not_true_iff_false, existsb_keys, valset_keys.
    split; intros [H1 H2]; (split; [exact H1|]).
    - intros w Hw E. apply H2. eauto.
    - intros (w & Hw & E). exact (H2 w Hw (Logic.eq_sym E)).
  Qed.

  Lemma unmatched_nodup x y : NoDup (map (render ops) (map snd (unmatched x y))).
  Proof.
    rewrite keyed_render; [apply NoDup_map_filter, valset_nodup|].
    intros h v Hin. apply In_unmatched in Hin. apply (valset_pair y), Hin.
  Qed.

  Lemma unmatched_snd x y v : In v (map snd (unmatched x y)) <->
    exists h, In (h, v) (valset ops y []) /\ forall w, In w x -> render ops v <> render ops w.
  Proof.
    rewrite in_map_iff. split.
    - intros [[h v'] [<- Hin]]. apply In_unmatched in Hin. destruct Hin as [Hin Hno].
      destruct (valset_pair _ _ _ Hin) as [-> _]. eauto.
    - intros (h & Hin & Hno). exists (h, v). split; [reflexivity|]. apply In_unmatched. split; [exact Hin|].
      destruct (valset_pair _ _ _ Hin) as [-> _]. exact Hno.
  Qed.

  Lemma union_spec : forall x y,
    let u := set_union ops x y in
    NoDup (map (render ops) u) /\
    (forall v, In v u -> In v x \/ In v y) /\
    (forall v, In v x \/ In v y -> exists w, In w u /\ render ops v = render ops w) /\
    (exists ux uy, u = ux ++ uy /\ (forall v, In v ux -> In v x) /\
       (forall v, In v uy -> In v y /\ forall w, In w x -> ~ render ops v = render ops w)).
  Proof.
    intros x y. cbv zeta. change (set_union ops x y) with (map snd (valset ops x []) ++ map snd (unmatched x y)).
    assert (forall v, In v (map snd (valset ops x [])) -> In v x) as Hux.
    { intros v Hin. apply in_map_iff in Hin. destruct Hin as [[h v'] [<- Hin]]. apply (valset_pair x h v' Hin). }
    assert (forall v, In v (map snd (unmatched x y)) -> In v y /\ forall w, In w x -> ~ render ops v = render ops w) as Huy.
    { intros v Hin. apply unmatched_snd in Hin. destruct Hin as (h & Hin & Hno). split; [apply (valset_pair y h v Hin)|exact Hno]. }
    assert (forall v, In v x -> exists w, In w (map snd (valset ops x [])) /\ render ops v = render ops w) as Hcx.
    { intros v Hv. destruct (valset_complete x v Hv) as [w [Hw Heq]]. exists w. split; [|exact Heq].
      apply in_map_iff. exists (render ops v, w). split; [reflexivity|exact Hw]. }
    split; [|split; [|split]].
    - rewrite map_app, (keyed_render (valset ops x [])) by (intros h v Hin; apply (valset_pair x h v Hin)).
      apply NoDup_app_intro; [apply valset_nodup|apply unmatched_nodup|].
      intros h Hx Hy. apply valset_keys in Hx. destruct Hx as (w & Hw & <-).
      apply in_map_iff in Hy. destruct Hy as [v [E Hv]]. apply Huy in Hv. exact (proj2 Hv w Hw E).
    - intros v Hin. apply in_app_iff in Hin. destruct Hin as [Hin|Hin]; [left; apply Hux|right; apply Huy]; exact Hin.
    - intros v [Hv|Hv].
      + destruct (Hcx v Hv) as [w [Hw Heq]]. exists w. split; [apply in_app_iff; left; exact Hw|exact Heq].
      + destruct (in_dec (list_eq_dec N.eq_dec) (render ops v) (map fst (valset ops x []))) as [Hk|Hk].
        * apply valset_keys in Hk. destruct Hk as (w & Hw & E). destruct (Hcx w Hw) as [w' [Hw' Heq]].
          exists w'. split; [apply in_app_iff; left; exact Hw'|congruence].
        * destruct (valset_complete y v Hv) as [w [Hw Heq]]. exists w. split; [|exact Heq].
          apply in_app_iff. right. apply unmatched_snd. exists (render ops v). split; [exact Hw|].
          intros w' Hw' E. apply Hk, valset_keys. exists w'. split; [exact Hw'|congruence].
    - exists (map snd (valset ops x [])), (map snd (unmatched x y)). split; [reflexivity|]. split; [exact Hux|exact Huy].
  Qed.

  Lemma kget_render y h v : kget h (valset ops y []) = Some v -> h = render ops v /\ In v y.
  Proof. intros H. apply kget_In in H. apply (valset_pair y h v H). Qed.

  Lemma render_matched (sy s : list (list N * val)) :
    (forall h v, kget h sy = Some v -> h = render ops v) ->
    map (render ops) (flat_map (fun kx => match kget (fst kx) sy with Some v => [v] | None => [] end) s) =
    map fst (filter (fun kx => match kget (fst kx) sy with Some _ => true | None => false end) s).
  Proof.
    intros Hsy. induction s as [|[h w] s IH]; [reflexivity|]. cbn [flat_map filter fst]. rewrite map_app, IH.
    destruct (kget h sy) as [v|] eqn:Ek; [|reflexivity]. rewrite (Hsy h v Ek). reflexivity.
  Qed.

  Lemma intersect_spec : forall x y,
    let u := set_intersect ops x y in
    NoDup (map (render ops) u) /\
    (forall v, In v u -> In v y /\ exists w, In w x /\ render ops v = render ops w) /\
    (forall v w, In v x -> In w y -> render ops v = render ops w -> exists z, In z u /\ render ops v = render ops z).
  Proof.
    intros x y. cbv zeta. unfold set_intersect.
    set (sx := valset ops x []). set (sy := valset ops y []).
    set (F := fun kx : list N * val => match kget (fst kx) sy with Some v => [v] | None => [] end).
    split; [|split].
    - unfold F. rewrite render_matched by (intros h v Hk; apply (kget_render y h v Hk)).
      apply NoDup_map_filter. apply valset_nodup.
    - intros v Hin. apply in_flat_map in Hin. destruct Hin as [[h w] [Hin Hv]]. unfold F in Hv. cbn [fst] in Hv.
      destruct (kget h sy) as [v'|] eqn:Ek; [|destruct Hv]. destruct Hv as [Hv|[]]. subst v'.
      apply kget_render in Ek. destruct Ek as [Hh Hvy]. split; [exact Hvy|].
      destruct (valset_pair x h w Hin) as [Hh' Hwx]. exists w. split; [exact Hwx|congruence].
    - intros v w Hv Hw Heq.
      destruct (valset_complete x v Hv) as [v' [Hv' _]].
      destruct (In_keys_kget (render ops v) sy) as [z Hz]; [apply valset_keys; eauto|].
      exists z. split.
      + apply in_flat_map. exists (render ops v, v'). split; [exact Hv'|]. unfold F. cbn [fst]. rewrite Hz. left. reflexivity.
      + apply kget_render in Hz. apply Hz.
  Qed.

  Lemma diff_spec : forall x y,
    let u := set_diff ops x y in
    NoDup (map (render ops) u) /\
    (forall v, In v u -> In v x /\ forall w, In w y -> ~ render ops v = render ops w) /\
    (forall v, In v x -> (forall w, In w y -> ~ render ops v = render ops w) -> exists z, In z u /\ render ops v = render ops z).
  Proof.
    intros x y. cbv zeta. change (set_diff ops x y) with (map snd (unmatched y x)).
    split; [apply unmatched_nodup|split].
    - intros v Hin. apply unmatched_snd in Hin. destruct Hin as (h & Hin & Hno). split; [apply (valset_pair x h v Hin)|exact Hno].
    - intros v Hv Hno. destruct (valset_complete x v Hv) as [z [Hz Heq]]. exists z. split; [|exact Heq].
      apply unmatched_snd. exists (render ops v). split; [exact Hz|]. rewrite <- Heq. exact Hno.
  Qed.
End Sets.

Section Get.
  Variable ops : numops.
  Variable orc : oracles.

  Lemma get_list_spec : forall t vs i d,
    bsem ops orc BGetList [VList t vs; VNum i; d] =
    ret (let k := to_i64 ops i in
         if (Z.leb 0 k && Z.ltb k (Z.of_nat (len vs)))%bool then nth (Z.to_nat k) vs d else d).
  Proof.
    intros t vs i d. unfold bsem, as_list, as_num. rewrite !mbind_ret_l. cbv zeta.
    unfold len.
    destruct (Z.ltb_spec (to_i64 ops i) 0) as [L|L]; destruct (Z.leb_spec 0 (to_i64 ops i)) as [L'|L']; try lia;
      cbn [orb andb]; [reflexivity|].
    destruct (Z.leb_spec (Z.of_nat (List.length vs)) (to_i64 ops i)) as [G|G];
      destruct (Z.ltb_spec (to_i64 ops i) (Z.of_nat (List.length vs))) as [G'|G']; try lia; [reflexivity|].
    rewrite (nth_error_nth' vs d) by lia. reflexivity.
  Qed.

  Lemma get_map_spec : forall t kvs k d kk,
    key_of ops k = ([], OVal kk) ->
    bsem ops orc BGetMap [VMap t kvs; k; d] = ret (match kget kk kvs with Some v => v | None => d end) /\
    bsem ops orc BIsset [VMap t kvs; k] = ret (VBool (match kget kk kvs with Some _ => true | None => false end)).
  Proof.
    intros t kvs k d kk Hk. unfold bsem, as_map. rewrite !mbind_ret_l. rewrite Hk.
    change (@pair (list event) (outcome (list N)) [] (OVal kk)) with (ret kk). rewrite !mbind_ret_l.
    split; [|reflexivity]. destruct (kget kk kvs); reflexivity.
  Qed.
End Get.

Section Cmp.
  Variable ops : numops.

  Lemma cmp_laws : forall x y,
    num_ne ops x y = fle ops (eps ops) (fabs ops (fsub ops x y)) /\
    num_lt ops x y = (flt ops x y && num_ne ops x y)%bool /\
    num_gt ops x y = (flt ops y x && num_ne ops x y)%bool /\
    num_le ops x y = (fle ops x y || num_eq ops x y)%bool /\
    num_ge ops x y = (fle ops y x || num_eq ops x y)%bool.
  Proof. intros x y. repeat split. Qed.

  Lemma trichotomy : forall x y,
    (flt ops x y = true -> flt ops y x = false) ->
    (flt ops x y = false -> flt ops y x = false -> num_eq ops x y = true) ->
    (num_eq ops x y = negb (num_ne ops x y)) ->
    (num_lt ops x y = true /\ num_eq ops x y = false /\ num_gt ops x y = false) \/
    (num_lt ops x y = false /\ num_eq ops x y = true /\ num_gt ops x y = false) \/
    (num_lt ops x y = false /\ num_eq ops x y = false /\ num_gt ops x y = true).
  Proof.
    intros x y H1 H2 H3. unfold num_lt, num_gt. rewrite H3 in *.
    destruct (num_ne ops x y); cbn [negb] in *.
    - destruct (flt ops x y) eqn:Exy.
      + left. rewrite (H1 Logic.eq_refl). auto.
      + destruct (flt ops y x) eqn:Eyx.
        * right. right. auto.
        * specialize (H2 Logic.eq_refl Logic.eq_refl). discriminate H2.
    - right. left. rewrite !andb_false_r. auto.
  Qed.
End Cmp.

Section Utf8.
  Local Open Scope N_scope.

  Lemma decode_all_encode : forall rs f,
    Forall (fun c => c < 1114112 /\ ~ (55296 <= c <= 57343)) rs ->
    (List.length (flat_map utf8_encode rs) <= f)%nat ->
    List.length (decode_all f (flat_map utf8_encode rs)) = List.length rs.
  Proof.
    induction rs as [|c rs IH]; intros f Hall Hf.
    - destruct f; reflexivity.
    - inversion Hall as [|c' rs' [Hc1 Hc2] Hrs]; subst.
      destruct (utf8_scalar c Hc1 Hc2) as [l Hl]. destruct (utf8_head _ _ Hl) as (b0 & t & El & _).
      cbn [flat_map] in *. rewrite (utf8_encode_ok _ _ Hl), app_length in *.
      pose proof (utf8_decode_ok _ _ (flat_map utf8_encode rs) Hl) as Hdec. pose proof (skipn_len_app l (flat_map utf8_encode rs)) as Hskip.
      rewrite El in *. cbn [app List.length] in *.
      destruct f as [|f]; [lia|].
      cbn [decode_all]. rewrite Hdec. cbn [List.length]. f_equal.
      rewrite Hskip. apply IH; [exact Hrs|lia].
  Qed.

  Lemma len_runes : forall rs,
    Forall (fun c => (c < 1114112)%N /\ ~ (55296 <= c <= 57343)%N) rs ->
    rune_count (flat_map utf8_encode rs) = N.of_nat (len rs).
  Proof.
    intros rs Hall. unfold rune_count, runes_of, len. f_equal.
    apply decode_all_encode; [exact Hall|apply Nat.le_refl].
  Qed.
End Utf8.

Lemma radix_value : forall base ds d,
  radix_val base (ds ++ [d]) = (radix_val base ds * base + hex_val d)%N.
Proof. intros base ds d. unfold radix_val. rewrite fold_left_app. reflexivity. Qed.

Print Assumptions all_modelled.
Print Assumptions union_spec.
Print Assumptions intersect_spec.
Print Assumptions diff_spec.
Print Assumptions get_list_spec.
Print Assumptions get_map_spec.
Print Assumptions cmp_laws.
Print Assumptions trichotomy.
Print Assumptions len_runes.
Print Assumptions radix_value.
