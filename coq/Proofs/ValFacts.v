(* Laws of the trace monad [M] of Model/Val.v ([mbind], [mmapM]) and of the keyed maps [kget]/[kput]; the data values
   [good] (well formed, no function inside) with their container lemmas; the predicate [avoid] (failures and faults a
   computation never ends in); and what every built-in inherits from [ret] and [mbind] (Section Compositional). *)
From Coq Require Import List String Bool NArith ZArith Lia.
From Yae Require Import Base.Sexp Model.Ty Gen.Generated Model.Num Model.Lexer Model.Literal Model.Val Model.Render
  Model.ValSpec Model.Builtins Model.EvalSpec Proofs.ListFacts.
Import ListNotations.
Local Open Scope list_scope.

Definition tpre {X} (t : list event) (m : M X) : M X := (t ++ fst m, snd m).

Lemma tpre_nil {X} (m : M X) : tpre [] m = m.
Proof. destruct m. reflexivity. Qed.

Lemma tpre_tpre {X} t1 t2 (m : M X) : tpre t1 (tpre t2 m) = tpre (t1 ++ t2) m.
Proof. destruct m. unfold tpre. cbn. rewrite app_assoc. reflexivity. Qed.

Lemma mbind_ret_l {X Y} (x : X) (f : X -> M Y) : mbind (ret x) f = f x.
Proof. unfold mbind, ret. destruct (f x). reflexivity. Qed.

Lemma mbind_val {X Y} t (x : X) (f : X -> M Y) : mbind (t, OVal x) f = tpre t (f x).
Proof. unfold mbind, tpre. destruct (f x). reflexivity. Qed.

Lemma mbind_assoc {X Y Z} (m : M X) (k1 : X -> M Y) (k2 : Y -> M Z) :
  mbind (mbind m k1) k2 = mbind m (fun x => mbind (k1 x) k2).
Proof.
  destruct m as [t [x|kf|kf]]; try reflexivity.
  cbn. destruct (k1 x) as [t1 [y|kf|kf]]; try reflexivity.
  cbn. destruct (k2 y) as [t2 o2]. rewrite app_assoc. reflexivity.
Qed.

Lemma mmapM_cons {X Y} (g : X -> M Y) x r :
  mmapM g (x :: r) = mbind (g x) (fun y => mbind (mmapM g r) (fun ys => ret (y :: ys))).
Proof. reflexivity. Qed.

Lemma mmapM_map {X Y Z} (h : X -> Y) (g : Y -> M Z) l : mmapM (fun x => g (h x)) l = mmapM g (map h l).
Proof. induction l as [|x r IH]; [reflexivity|]. cbn [map]. rewrite !mmapM_cons, IH. reflexivity. Qed.

Lemma mmapM_Forall2 {X Y} (g : X -> M Y) : forall l t ys, mmapM g l = (t, OVal ys) ->
  Forall2 (fun x y => exists t', g x = (t', OVal y)) l ys.
Proof.
  induction l as [|x r IH]; intros t ys H.
  - injection H as _ <-. constructor.
  - rewrite mmapM_cons in H. destruct (g x) as [t1 [y|k|k]] eqn:Ex; cbn in H; try discriminate H.
    destruct (mmapM g r) as [t2 [ys'|k|k]]; cbn in H; try discriminate H.
    injection H as _ <-. constructor; [eexists; exact Ex|exact (IH _ _ eq_refl)].
Qed.

Lemma mmapM_length : forall X Y (g : X -> M Y) l t ys, mmapM g l = (t, OVal ys) -> List.length ys = List.length l.
Proof. intros X Y g l t ys H. symmetry. exact (Forall2_len _ _ _ (mmapM_Forall2 _ _ _ _ H)). Qed.

Lemma key_of_cases : forall ops v, (exists kk, key_of ops v = ret kk) \/ key_of ops v = fault XOther.
Proof. intros ops v. unfold key_of. destruct v; try (right; reflexivity); left; eexists; reflexivity. Qed.

Lemma kget_In {X} k (l : list (list N * X)) x : kget k l = Some x -> In (k, x) l.
Proof. exact (get_In list_eqb (@kget) list_eqb_eq (fun _ _ => eq_refl) (fun _ _ _ _ _ => eq_refl) X k l x). Qed.

Lemma In_kget {X} k (l : list (list N * X)) x : NoDup (map fst l) -> In (k, x) l -> kget k l = Some x.
Proof. exact (In_get list_eqb (@kget) list_eqb_eq (fun _ _ _ _ _ => eq_refl) X k l x). Qed.

Lemma In_keys_kget {X} k (l : list (list N * X)) : In k (map fst l) -> exists x, kget k l = Some x.
Proof. exact (keys_get list_eqb (@kget) list_eqb_eq (fun _ _ _ _ _ => eq_refl) X k l). Qed.

Lemma kput_In {X} k (x : X) : forall l kv, In kv (kput k x l) -> kv = (k, x) \/ In kv l.
Proof.
  induction l as [|[k' x'] r IH]; simpl; intros kv H.
  - destruct H as [E|[]]; auto.
  - destruct (list_eqb k k').
    + destruct H as [E|H]; auto.
    + destruct H as [E|H]; [auto|]. destruct (IH _ H); auto.
Qed.

Lemma existsb_keys_kput {X} k0 k (x : X) l :
  existsb (list_eqb k0) (map fst (kput k x l)) = true ->
  list_eqb k0 k = true \/ existsb (list_eqb k0) (map fst l) = true.
Proof.
  intros H. apply existsb_exists in H. destruct H as [k1 [Hin E]].
  apply in_map_iff in Hin. destruct Hin as [kv [E1 Hin]]. subst k1.
  apply kput_In in Hin. destruct Hin as [->|Hin]; [left; exact E|].
  right. apply existsb_exists. exists (fst kv). split; [apply in_map; exact Hin|exact E].
Qed.

Lemma kput_nodup {X} k (x : X) : forall l, nodup_keys (map fst l) = true -> nodup_keys (map fst (kput k x l)) = true.
Proof.
  induction l as [|[k' x'] r IH]; simpl; intros H; [reflexivity|].
  apply andb_true_iff in H. destruct H as [H1 H2]. destruct (list_eqb k k') eqn:E.
  - apply list_eqb_eq in E. subst k'. simpl. rewrite H1, H2. reflexivity.
  - simpl. rewrite (IH H2), andb_true_r. apply negb_true_iff. apply negb_true_iff in H1.
    destruct (existsb (list_eqb k') (map fst (kput k x r))) eqn:Ex; [|reflexivity].
    apply existsb_keys_kput in Ex. destruct Ex as [Ex|Ex]; [|congruence].
    apply list_eqb_eq in Ex. subst k'. rewrite list_eqb_refl in E. discriminate.
Qed.

Definition good_ty (T : ty) : Prop := wf_ty T = true /\ slot_free T = true.
Definition good (x : val) : Prop := val_ok x = true /\ fun_free x = true.

Lemma good_list e vs :
  good_ty e -> Forall (fun y => good y /\ ty_eqb (val_type y) e = true) vs -> good (VList (TList e) vs).
Proof.
  intros [Hw Hs] Hv. rewrite Forall_forall in Hv. split.
  - cbn [val_ok wf_ty slot_free]. rewrite Hw, Hs. apply forallb_forall. intros y Hy.
    destruct (Hv y Hy) as [[Ho _] Ht]. rewrite Ho. exact Ht.
  - apply forallb_forall. intros y Hy. apply (Hv y Hy).
Qed.

Lemma good_map k e kvs :
  good_ty (TMap k e) -> nodup_keys (map fst kvs) = true ->
  Forall (fun kv => good (snd kv) /\ ty_eqb (val_type (snd kv)) e = true) kvs -> good (VMap (TMap k e) kvs).
Proof.
  intros [Hw Hs] Hn Hv. rewrite Forall_forall in Hv. split.
  - cbn [val_ok]. rewrite Hw, Hs, Hn. apply forallb_forall. intros kv Hin.
    destruct (Hv kv Hin) as [[Ho _] Ht]. rewrite Ho. exact Ht.
  - apply forallb_forall. intros kv Hin. apply (Hv kv Hin).
Qed.

Lemma good_maybe e o :
  good_ty e -> match o with Some y => good y /\ ty_eqb (val_type y) e = true | None => True end ->
  good (VMaybe (TMaybe e) o).
Proof.
  intros [Hw Hs] Ho. unfold good. cbn [val_ok fun_free wf_ty slot_free]. rewrite Hw, Hs.
  destruct o as [y|]; [|split; reflexivity]. destruct Ho as [[Ho Hf] Ht]. rewrite Ho, Ht. split; [reflexivity|exact Hf].
Qed.

Fixpoint fields_ok (fs : list (string * ty)) (vs : list val) {struct vs} : bool :=
  match fs, vs with
  | (_, ft) :: fr, x :: r => val_ok x && ty_eqb (val_type x) ft && fields_ok fr r
  | _, [] => true
  | [], _ :: _ => false
  end.

Lemma val_ok_obj fs vs :
  val_ok (VObj (TObj fs) vs) =
  wf_ty (TObj fs) && slot_free (TObj fs) && (Nat.eqb (len fs) (len vs) && fields_ok fs vs).
Proof. reflexivity. Qed.

Lemma good_objval fs vs : good_ty (TObj fs) ->
  Forall2 (fun f v => good v /\ ty_eqb (val_type v) (snd f) = true) fs vs -> good (VObj (TObj fs) vs).
Proof.
  intros G H.
  assert (fields_ok fs vs = true /\ len fs = len vs /\ forallb fun_free vs = true) as (F1 & F2 & F3).
  { clear G. induction H as [|[n ft] v fr r [[Ho Hf] Ht] _ IH]; [repeat split|]. destruct IH as (I1 & I2 & I3).
    simpl in Ht |- *. rewrite Ho, Ht, I1, Hf, I3. unfold len in *. simpl. rewrite I2. auto. }
  destruct G as [Hw Hs]. split; [|exact F3]. rewrite val_ok_obj, Hw, Hs, F1, F2, Nat.eqb_refl. reflexivity.
Qed.

(* [val_ok] of a container: its type is good, and the contents pass a test that one constructor of [ty] only can pass *)
Lemma val_ok_container T (b : bool) : wf_ty T && slot_free T && b = true -> good_ty T /\ b = true.
Proof. intros H. apply andb_true_iff in H. destruct H as [H Hb]. apply andb_true_iff in H. split; assumption. Qed.

Lemma val_ok_list t vs : val_ok (VList t vs) = true ->
  exists e, t = TList e /\ good_ty e /\ Forall (fun y => val_ok y = true /\ ty_eqb (val_type y) e = true) vs.
Proof.
  cbn [val_ok]. intros Ho. apply val_ok_container in Ho. destruct Ho as [Gt Hv]. destruct t as [| | | | | | | |e| | | |];
    try discriminate Hv.
  exists e. split; [reflexivity|]. split; [exact Gt|]. revert Hv. apply forallb_Forall. intros y. apply andb_true_iff.
Qed.

Lemma val_ok_map t kvs : val_ok (VMap t kvs) = true ->
  exists k e, t = TMap k e /\ good_ty (TMap k e) /\ nodup_keys (map fst kvs) = true /\
              Forall (fun kv => val_ok (snd kv) = true /\ ty_eqb (val_type (snd kv)) e = true) kvs.
Proof.
  cbn [val_ok]. rewrite <- andb_assoc. intros Ho. apply val_ok_container in Ho. destruct Ho as [Gt Hv].
  apply andb_true_iff in Hv. destruct Hv as [Hn Hv]. destruct t as [| | | | | | | | |k e| | |]; try discriminate Hv.
  exists k, e. split; [reflexivity|]. split; [exact Gt|]. split; [exact Hn|].
  revert Hv. apply forallb_Forall. intros kv. apply andb_true_iff.
Qed.

Lemma val_ok_maybe t o : val_ok (VMaybe t o) = true ->
  exists e, t = TMaybe e /\ good_ty e /\
            match o with Some y => val_ok y = true /\ ty_eqb (val_type y) e = true | None => True end.
Proof.
  cbn [val_ok]. intros Ho. apply val_ok_container in Ho. destruct Ho as [Gt Hv]. destruct t as [| | | | | | | | | | | |e];
    try discriminate Hv.
  exists e. split; [reflexivity|]. split; [exact Gt|]. destruct o as [y|]; [|exact I].
  apply andb_true_iff. exact Hv.
Qed.

Lemma val_ok_objval t vs : val_ok (VObj t vs) = true ->
  exists fs, t = TObj fs /\ good_ty (TObj fs) /\
             Forall2 (fun f v => val_ok v = true /\ ty_eqb (val_type v) (snd f) = true) fs vs.
Proof.
  intros Ho. destruct t; try (cbn [val_ok] in Ho; rewrite ?andb_false_r in Ho; discriminate Ho).
  rewrite val_ok_obj in Ho. apply andb_true_iff in Ho. destruct Ho as [Ht Hv]. apply andb_true_iff in Ht.
  apply andb_true_iff in Hv. destruct Hv as [Hl Hv]. apply Nat.eqb_eq in Hl.
  exists fs. split; [reflexivity|]. split; [exact Ht|]. clear Ht. unfold len in Hl.
  revert vs Hl Hv. induction fs as [|[n ft] fr IH]; intros [|v r] Hl Hv; try discriminate Hl; constructor;
    cbn in Hv; apply andb_true_iff in Hv; destruct Hv as [Hv Hr].
  - apply andb_true_iff. exact Hv.
  - apply IH; [injection Hl; auto|exact Hr].
Qed.

Lemma good_list_inv t vs : good (VList t vs) ->
  exists e, t = TList e /\ good_ty e /\ Forall (fun y => good y /\ ty_eqb (val_type y) e = true) vs.
Proof.
  intros [Ho Hf]. destruct (val_ok_list _ _ Ho) as (e & -> & Ge & Hv). exists e. split; [reflexivity|]. split; [exact Ge|].
  cbn [fun_free] in Hf. rewrite forallb_forall in Hf. rewrite Forall_forall in *.
  intros y Hy. destruct (Hv y Hy). repeat split; auto.
Qed.

Lemma good_map_inv t kvs : good (VMap t kvs) ->
  exists k e, t = TMap k e /\ good_ty (TMap k e) /\ nodup_keys (map fst kvs) = true /\
              Forall (fun kv => good (snd kv) /\ ty_eqb (val_type (snd kv)) e = true) kvs.
Proof.
  intros [Ho Hf]. destruct (val_ok_map _ _ Ho) as (k & e & -> & Gt & Hn & Hv). exists k, e. repeat (split; [assumption||reflexivity|]).
  cbn [fun_free] in Hf. rewrite forallb_forall in Hf. rewrite Forall_forall in *.
  intros kv Hin. destruct (Hv kv Hin). repeat split; auto.
Qed.

Lemma good_maybe_inv t o : good (VMaybe t o) ->
  exists e, t = TMaybe e /\ good_ty e /\ match o with Some y => good y /\ ty_eqb (val_type y) e = true | None => True end.
Proof.
  intros [Ho Hf]. destruct (val_ok_maybe _ _ Ho) as (e & -> & Ge & Hv). exists e. split; [reflexivity|]. split; [exact Ge|].
  destruct o as [y|]; [|exact I]. destruct Hv. repeat split; assumption.
Qed.

Lemma good_objval_inv t vs : good (VObj t vs) ->
  exists fs, t = TObj fs /\ good_ty (TObj fs) /\ Forall2 (fun f v => good v /\ ty_eqb (val_type v) (snd f) = true) fs vs.
Proof.
  intros [Ho Hf]. destruct (val_ok_objval _ _ Ho) as (fs & -> & G & F). exists fs. split; [reflexivity|]. split; [exact G|].
  clear Ho G. cbn [fun_free] in Hf. induction F as [|f v fr r [Hv Ht] _ IH]; constructor;
    simpl in Hf; apply andb_true_iff in Hf; destruct Hf as [Hf Hr].
  - repeat split; assumption.
  - exact (IH Hr).
Qed.

Lemma good_val_type x : good x -> good_ty (val_type x).
Proof.
  intros G. destruct x as [b|b|s|s n|t vs|t kvs|t vs|t o|t n l]; cbn [val_type]; try (split; reflexivity).
  - destruct (good_list_inv _ _ G) as (e & -> & Ge & _). exact Ge.
  - destruct (good_map_inv _ _ G) as (k & e & -> & Gt & _). exact Gt.
  - destruct (good_objval_inv _ _ G) as (fs & -> & Gt & _). exact Gt.
  - destruct (good_maybe_inv _ _ G) as (e & -> & Ge & _). exact Ge.
  - destruct G as [_ Hf]. discriminate Hf.
Qed.

Lemma good_ty_obj fts : nodupb (map fst fts) = true -> Forall (fun y => good_ty (snd y)) fts -> good_ty (TObj fts).
Proof.
  intros Hn Hf. unfold good_ty. cbn [wf_ty slot_free]. rewrite Hn. cbn [andb].
  split; apply forallb_forall; intros y Hy; rewrite Forall_forall in Hf; apply (Hf y Hy).
Qed.

Lemma good_ty_map k v : keyable k = true -> good_ty k -> good_ty v -> good_ty (TMap k v).
Proof. intros Hkey [Hk1 Hk2] [Hv1 Hv2]. unfold good_ty. cbn [wf_ty slot_free]. rewrite Hkey, Hk1, Hk2, Hv1, Hv2. auto. Qed.

Section Avoid.
  Variable bfail : failk -> Prop.
  Variable bfault : faultk -> Prop.

  Definition avoid {X} (m : M X) : Prop :=
    match snd m with OVal _ => True | OFail k => ~ bfail k | OFault k => ~ bfault k end.

  Lemma av_ret {X} (x : X) : avoid (ret x).
  Proof. exact I. Qed.
  Lemma av_fail {X} k : ~ bfail k -> avoid (@fail X k).
  Proof. intros H. exact H. Qed.
  Lemma av_fault {X} k : ~ bfault k -> avoid (@fault X k).
  Proof. intros H. exact H. Qed.
  Lemma av_emit e : avoid (emit e).
  Proof. exact I. Qed.
  Lemma av_bind_eq {X Y} (m : M X) (k : X -> M Y) :
    avoid m -> (forall t x, m = (t, OVal x) -> avoid (k x)) -> avoid (mbind m k).
  Proof.
    destruct m as [t [x|fk|fk]]; unfold avoid; simpl; intros H1 H2; try assumption.
    specialize (H2 t x eq_refl). destruct (k x) as [t' o']. exact H2.
  Qed.
  Lemma av_bind {X Y} (m : M X) (k : X -> M Y) : avoid m -> (forall x, avoid (k x)) -> avoid (mbind m k).
  Proof. intros H1 H2. apply av_bind_eq; auto. Qed.
  Lemma av_mmapM {X Y} (g : X -> M Y) : forall xs, Forall (fun x => avoid (g x)) xs -> avoid (mmapM g xs).
  Proof.
    induction 1 as [|x xs Hx Hr IH]; simpl; [apply av_ret|].
    apply av_bind; [exact Hx|]. intros y. apply av_bind; [exact IH|]. intros ys. apply av_ret.
  Qed.
  Lemma avoid_fail {X} (m : M X) t k : avoid m -> m = (t, OFail k) -> ~ bfail k.
  Proof. intros H E. subst m. exact H. Qed.
  Lemma avoid_fault {X} (m : M X) t k : avoid m -> m = (t, OFault k) -> ~ bfault k.
  Proof. intros H E. subst m. exact H. Qed.
End Avoid.
Global Opaque avoid.

Ltac av_side := solve [ assumption | intros [] | intro; discriminate | discriminate | tauto | congruence ].

(* A property that holds of [ret] and of the faults XOther and XTypeConf, and that [mbind] keeps, holds of every built-in
   but three: [%] needs it of the failure FModZero, [match] of FRegex, [print] of [emit]. *)
Section Compositional.
  Variable ops : numops.
  Variable orc : oracles.
  Variable P : forall X, M X -> Prop.
  Hypothesis P_ret : forall X (x : X), P X (ret x).
  Hypothesis P_bind : forall X Y (m : M X) (k : X -> M Y), P X m -> (forall x, P Y (k x)) -> P Y (mbind m k).
  Hypothesis P_other : forall X, P X (fault XOther).
  Hypothesis P_conf : forall X, P X (fault XTypeConf).

  Lemma comp_as_num v : P _ (as_num v). Proof. destruct v; first [apply P_ret | apply P_conf]. Qed.
  Lemma comp_as_bool v : P _ (as_bool v). Proof. destruct v; first [apply P_ret | apply P_conf]. Qed.
  Lemma comp_as_str v : P _ (as_str v). Proof. destruct v; first [apply P_ret | apply P_conf]. Qed.
  Lemma comp_as_time v : P _ (as_time v). Proof. destruct v; first [apply P_ret | apply P_conf]. Qed.
  Lemma comp_as_list v : P _ (as_list v). Proof. destruct v; first [apply P_ret | apply P_conf]. Qed.
  Lemma comp_as_map v : P _ (as_map v). Proof. destruct v; first [apply P_ret | apply P_conf]. Qed.
  Lemma comp_key_of v : P _ (key_of ops v). Proof. destruct v; first [apply P_ret | apply P_other]. Qed.

  Lemma comp_fold_num f vs : P _ (fold_num ops f vs).
  Proof.
    unfold fold_num. destruct vs as [|v0 r]; [apply P_ret|].
    apply P_bind; [apply comp_as_num|]. intros x0. apply P_bind; [|intros; apply P_ret].
    revert x0. induction r as [|v r IH]; intros acc; [apply P_ret|].
    apply P_bind; [apply comp_as_num|]. intros x. apply IH.
  Qed.

  Ltac comp :=
    repeat first
      [ match goal with |- P _ (match ?x with _ => _ end) => destruct x end
      | apply P_bind; [|intros ?]
      | apply P_ret | apply P_other | apply P_conf
      | apply comp_as_num | apply comp_as_bool | apply comp_as_str | apply comp_as_time
      | apply comp_as_list | apply comp_as_map | apply comp_key_of | apply comp_fold_num
      | assumption ].

  Lemma comp_num1 args f : P _ (num1 args f). Proof. unfold num1. comp. Qed.
  Lemma comp_num2 args f : P _ (num2 args f). Proof. unfold num2. comp. Qed.
  Lemma comp_time2 args f : P _ (time2 args f). Proof. unfold time2. comp. Qed.
  Lemma comp_any2 args f : P _ (any2 args f). Proof. unfold any2. comp. Qed.

  (* in the bodies of [%], [match] and [print], [comp] stops at the one leaf that the matching premise then closes.  A
     built-in whose body ends in some other failure needs a premise more here, and a hypothesis more in AvoidSem. *)
  Lemma comp_bsem b args :
    (b = BPrint -> forall e, P unit (emit e)) -> (b = BMod -> P val (fail FModZero)) -> (b = BMatch -> P val (fail FRegex)) ->
    P val (bsem ops orc b args).
  Proof.
    intros Hp Hm Hr. destruct b; unfold bsem;
      first [ apply comp_num1 | apply comp_num2 | apply comp_time2 | apply comp_any2
            | solve [comp; first [apply (Hp eq_refl) | apply (Hm eq_refl) | apply (Hr eq_refl)]] ].
  Qed.
End Compositional.

Section AvoidSem.
  Variable ops : numops.
  Variable orc : oracles.
  Variable bfail : failk -> Prop.
  Variable bfault : faultk -> Prop.
  Hypothesis Hother : ~ bfault XOther.
  Hypothesis Hconf : ~ bfault XTypeConf.
  Notation av_ := (avoid bfail bfault).

  Let conf X : av_ (@fault X XTypeConf) := @av_fault bfail bfault X XTypeConf Hconf.
  Let other X : av_ (@fault X XOther) := @av_fault bfail bfault X XOther Hother.

  Lemma av_as_num v : av_ (as_num v). Proof. exact (comp_as_num _ (@av_ret bfail bfault) conf v). Qed.
  Lemma av_as_bool v : av_ (as_bool v). Proof. exact (comp_as_bool _ (@av_ret bfail bfault) conf v). Qed.
  Lemma av_as_list v : av_ (as_list v). Proof. exact (comp_as_list _ (@av_ret bfail bfault) conf v). Qed.
  Lemma av_as_map v : av_ (as_map v). Proof. exact (comp_as_map _ (@av_ret bfail bfault) conf v). Qed.
  Lemma av_key_of v : av_ (key_of ops v). Proof. exact (comp_key_of ops _ (@av_ret bfail bfault) other v). Qed.

  Lemma av_bsem_cond b args : (b = BMod -> ~ bfail FModZero) -> (b = BMatch -> ~ bfail FRegex) -> av_ (bsem ops orc b args).
  Proof.
    intros Hmod Hregex.
    exact (comp_bsem ops orc _ (@av_ret bfail bfault) (@av_bind bfail bfault) other conf b args
             (fun _ => av_emit bfail bfault) (fun E => av_fail bfail bfault _ (Hmod E)) (fun E => av_fail bfail bfault _ (Hregex E))).
  Qed.

  Hypothesis Hmod : ~ bfail FModZero.
  Hypothesis Hregex : ~ bfail FRegex.

  Lemma av_bsem b args : av_ (bsem ops orc b args).
  Proof. apply av_bsem_cond; intros _; assumption. Qed.
End AvoidSem.
