(* Proofs for Props/C14.v: the inventory of shared accesses has no race (a finite table, by evaluation); an atomic counter
   hands out distinct numbers and the plain read-then-write counter does not; the type a compilation infers does not
   depend on which fresh names it drew. *)
From Coq Require Import List ZArith Lia.
From Yae Require Import Model.Ty Model.Cst Model.Check Model.CheckSpec Model.Conc Proofs.C05Proofs.
Import ListNotations.

Lemma race_free_ops :
  race_free compile_accesses compile_accesses = true /\
  race_free compile_accesses invoke_accesses = true /\
  race_free invoke_accesses invoke_accesses = true.
Proof. vm_compute. repeat split. Qed.

(* the two parts go together: a number drawn later is above the counter it started from, hence new *)
Lemma fresh_unique : forall sched n,
  NoDup (map snd (run_atomic sched n)) /\ Forall (fun x => (n < snd x)%Z) (run_atomic sched n).
Proof.
  induction sched as [|t r IH]; intros n; cbn [run_atomic map snd]; [split; constructor|].
  destruct (IH (n + 1)%Z) as [Hnd Hgt]. rewrite Forall_forall in Hgt. split; constructor.
  - intros Hin. apply in_map_iff in Hin. destruct Hin as [x [Hx Hin]]. specialize (Hgt x Hin). lia.
  - exact Hnd.
  - cbn [snd]. lia.
  - apply Forall_forall. intros x Hin. specialize (Hgt x Hin). lia.
Qed.

Lemma plain_counter_refuted : exists sched,
  let out := run_plain sched 0 [] [] in ~ NoDup (map snd out).
Proof.
  exists [RdStep 0; RdStep 1; WrStep 0; WrStep 1]. vm_compute.
  intros H. inversion H as [|x l Hn Hd]; subst. apply Hn. left. reflexivity.
Qed.

Lemma inferred_type_unique fe G fuel1 fuel2 fresh1 fresh2 e a1 T1 a2 T2 :
  fenv_ok fe = true -> tenv_ok G = true -> fresh_ok fe fresh1 -> fresh_ok fe fresh2 ->
  check fe G fuel1 fresh1 e = COk (a1, T1) -> check fe G fuel2 fresh2 e = COk (a2, T2) -> ty_eqb T1 T2 = true.
Proof.
  intros Hfe HG Hf1 Hf2 C1 C2.
  exact (has_type_unique fe G fresh1 e T1 T2 Hfe HG Hf1
           (check_sound _ _ _ _ _ _ _ Hfe HG Hf1 C1) (check_sound _ _ _ _ _ _ _ Hfe HG Hf2 C2)).
Qed.

Lemma outcome_independent : forall fe G fuel fresh1 fresh2 e a1 T1 a2 T2,
  fenv_ok fe = true -> tenv_ok G = true -> fresh_ok fe fresh1 -> fresh_ok fe fresh2 ->
  check fe G fuel fresh1 e = COk (a1, T1) -> check fe G fuel fresh2 e = COk (a2, T2) -> ty_eqb T1 T2 = true.
Proof. intros fe G fuel. apply inferred_type_unique. Qed.

Print Assumptions race_free_ops.
Print Assumptions fresh_unique.
Print Assumptions plain_counter_refuted.
Print Assumptions outcome_independent.
