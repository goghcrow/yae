(* Proofs for Props/C06.v.  A lazy built-in is its body in EvalFacts applied to the operands as thunks; a run of strict
   operands is [mmapM], whose trace and first non-value [mmapM_seq_bind] describes. *)
From Coq Require Import List String ZArith.
From Yae Require Import Model.Num Model.Check Model.Val Model.Builtins Model.Eval Proofs.ValFacts Proofs.EvalFacts Model.EvalSpec.
Import ListNotations.
Local Open Scope string_scope.
Local Open Scope list_scope.

(* Props/C06.v states the order theorems over a definition of its own with this body *)
Fixpoint seq_traces (ms : list (M val)) : list event * option (outcome val) :=
  match ms with
  | [] => ([], None)
  | (t, OVal _) :: r => let '(t', o) := seq_traces r in (t ++ t', o)
  | (t, o) :: _ => (t, Some o)
  end.

Lemma mmapM_seq_bind {X Y} (g : X -> M val) (l : list X) : forall k : list val -> M Y,
  let '(tr, stop) := seq_traces (map g l) in
  match stop with
  | Some o => tr_of (mbind (mmapM g l) k) = tr /\ (forall y, out_of (mbind (mmapM g l) k) <> OVal y) /\
              is_fault (out_of (mbind (mmapM g l) k)) = is_fault o
  | None => exists vs, Forall2 (fun e v => out_of (g e) = OVal v) l vs /\
              mbind (mmapM g l) k = (let '(t, o) := k vs in (tr ++ t, o))
  end.
Proof.
  induction l as [|x r IH]; intros k.
  - exists []. split; [constructor|]. cbn. destruct (k []); reflexivity.
  - cbn [map seq_traces]. rewrite mmapM_cons, mbind_assoc. destruct (g x) as [t [v|kf|kf]] eqn:Egx.
    + rewrite mbind_val, mbind_assoc. specialize (IH (fun ys => mbind (ret (v :: ys)) k)).
      destruct (seq_traces (map g r)) as [t' [o|]].
      * destruct IH as (Ht & Hv & Hf). unfold tr_of, out_of, tpre in *. cbn [fst snd]. rewrite Ht.
        exact (conj eq_refl (conj Hv Hf)).
      * destruct IH as (vs & HF & E). exists (v :: vs). split; [constructor; [rewrite Egx; reflexivity|exact HF]|].
        rewrite E, mbind_ret_l. destruct (k (v :: vs)) as [t2 o2]. unfold tpre. cbn. rewrite app_assoc. reflexivity.
    + cbn. repeat split. discriminate.
    + cbn. repeat split. discriminate.
Qed.

Lemma mmapM_wrap_order {X} (g : X -> M val) (W : list val -> val) (l : list X) :
  let '(tr, stop) := seq_traces (map g l) in
  tr_of (let^ vs := mmapM g l in ret (W vs)) = tr /\
  match stop with
  | Some o => (forall v, out_of (let^ vs := mmapM g l in ret (W vs)) <> OVal v) /\
              is_fault (out_of (let^ vs := mmapM g l in ret (W vs))) = is_fault o
  | None => exists vs, out_of (let^ vs := mmapM g l in ret (W vs)) = OVal (W vs) /\
              Forall2 (fun e v => out_of (g e) = OVal v) l vs
  end.
Proof.
  pose proof (mmapM_seq_bind g l (fun vs => ret (W vs))) as Hm.
  destruct (seq_traces (map g l)) as [tr [o|]]; [exact Hm|].
  destruct Hm as [vs [HF ->]]. cbn. rewrite app_nil_r. split; [reflexivity|]. exists vs. split; [reflexivity|exact HF].
Qed.

Section C06Proofs.
Variable ops : numops.
Variable orc : oracles.
Variable fe : fenv.
Variable rho : venv.

Notation ev := (eval ops orc fe rho).

Definition resolves_to (key : string) (idx : Z) (b : bfun) : Prop :=
  exists sg, lookup_fn fe key idx = Some sg /\ sig_is_builtin sg = true /\ s_lazy sg = true /\
             classify (s_name sg) (s_params sg) = Some b.

Definition lazy_body (b : bfun) : option (list (unit -> M val) -> M val) :=
  match b with BIf => Some lazy_if | BAnd => Some lazy_and | BOr => Some lazy_or | _ => None end.

Lemma eval_lazy_builtin f col key idx fty callee args b body :
  resolves_to key idx b -> key <> "" -> lazy_body b = Some body ->
  ev (S f) (ACall col key idx fty callee args) = body (map (fun x (_ : unit) => ev f x) args).
Proof.
  intros [sg [Hl [Hb [Hz Hc]]]] Hk Hbody.
  rewrite (eval_static_call ops orc fe rho f col key idx fty callee args sg Hk Hl). unfold do_call, lazy_call.
  rewrite Hz, Hb, apply_lazy_eq, Hc. destruct b; try discriminate Hbody; injection Hbody as <-; reflexivity.
Qed.

Lemma eval_if : forall f col key idx fty callee c a b tc cv,
  resolves_to key idx BIf -> key <> "" ->
  ev f c = (tc, OVal (VBool cv)) ->
  ev (S f) (ACall col key idx fty callee [c; a; b]) =
    (let '(t, o) := ev f (if cv then a else b) in (tc ++ t, o)).
Proof.
  intros f col key idx fty callee c a b tc cv Hr Hk Hc.
  rewrite (eval_lazy_builtin f col key idx fty callee [c; a; b] BIf _ Hr Hk eq_refl). cbn [map].
  rewrite (lazy_if_val _ _ _ tc cv Hc). destruct cv; reflexivity.
Qed.

Lemma eval_if_cond_fails : forall f col key idx fty callee c a b tc o,
  resolves_to key idx BIf -> key <> "" ->
  ev f c = (tc, o) -> (forall v, o <> OVal v) ->
  exists o', ev (S f) (ACall col key idx fty callee [c; a; b]) = (tc, o') /\ (forall v, o' <> OVal v).
Proof.
  intros f col key idx fty callee c a b tc o Hr Hk Hc Hnv.
  rewrite (eval_lazy_builtin f col key idx fty callee [c; a; b] BIf _ Hr Hk eq_refl). cbn [map lazy_if]. rewrite Hc.
  destruct o as [v|k|k].
  - exfalso. exact (Hnv v eq_refl).
  - exists (OFail k). split; [reflexivity|discriminate].
  - exists (OFault k). split; [reflexivity|discriminate].
Qed.

Lemma eval_and : forall f col key idx fty callee a b ta av,
  resolves_to key idx BAnd -> key <> "" ->
  ev f a = (ta, OVal (VBool av)) ->
  ev (S f) (ACall col key idx fty callee [a; b]) =
    (if av then (let '(t, o) := ev f b in
                 (ta ++ t, match o with OVal (VBool bv) => OVal (VBool bv) | OVal _ => OFault XTypeConf | x => x end))
     else (ta, OVal (VBool false))).
Proof.
  intros f col key idx fty callee a b ta av Hr Hk Ha.
  rewrite (eval_lazy_builtin f col key idx fty callee [a; b] BAnd _ Hr Hk eq_refl). cbn [map lazy_and]. rewrite Ha.
  destruct av; [rewrite bool_operand; cbn; destruct (ev f b); reflexivity|cbn; rewrite app_nil_r; reflexivity].
Qed.

Lemma eval_or : forall f col key idx fty callee a b ta av,
  resolves_to key idx BOr -> key <> "" ->
  ev f a = (ta, OVal (VBool av)) ->
  ev (S f) (ACall col key idx fty callee [a; b]) =
    (if av then (ta, OVal (VBool true))
     else (let '(t, o) := ev f b in
           (ta ++ t, match o with OVal (VBool bv) => OVal (VBool bv) | OVal _ => OFault XTypeConf | x => x end))).
Proof.
  intros f col key idx fty callee a b ta av Hr Hk Ha.
  rewrite (eval_lazy_builtin f col key idx fty callee [a; b] BOr _ Hr Hk eq_refl). cbn [map lazy_or]. rewrite Ha.
  destruct av; [cbn; rewrite app_nil_r; reflexivity|rewrite bool_operand; cbn; destruct (ev f b); reflexivity].
Qed.

Lemma eval_list_order : forall f t es,
  es <> [] ->
  let '(tr, stop) := seq_traces (map (ev f) es) in
  tr_of (ev (S f) (AList t es)) = tr /\
  match stop with
  | Some o => (forall v, out_of (ev (S f) (AList t es)) <> OVal v) /\ is_fault (out_of (ev (S f) (AList t es))) = is_fault o
  | None => exists vs, out_of (ev (S f) (AList t es)) = OVal (VList t vs) /\ Forall2 (fun e v => out_of (ev f e) = OVal v) es vs
  end.
Proof.
  intros f t es Hne. destruct es as [|e r]; [destruct Hne; reflexivity|]. rewrite eval_list.
  exact (mmapM_wrap_order (ev f) (VList t) (e :: r)).
Qed.

Lemma eval_obj_order : forall f t fs,
  fs <> [] ->
  let '(tr, stop) := seq_traces (map (fun nf => ev f (snd nf)) fs) in
  tr_of (ev (S f) (AObj t fs)) = tr /\
  match stop with
  | Some o => (forall v, out_of (ev (S f) (AObj t fs)) <> OVal v)
  | None => exists vs, out_of (ev (S f) (AObj t fs)) = OVal (VObj t vs) /\ Forall2 (fun nf v => out_of (ev f (snd nf)) = OVal v) fs vs
  end.
Proof.
  intros f t fs Hne. destruct fs as [|e r]; [destruct Hne; reflexivity|]. rewrite eval_obj.
  pose proof (mmapM_wrap_order (fun nf : string * aexpr => ev f (snd nf)) (VObj t) (e :: r)) as Hm.
  destruct (seq_traces (map (fun nf => ev f (snd nf)) (e :: r))) as [tr [o|]]; [split; apply Hm|exact Hm].
Qed.

Lemma eval_strict_call_order : forall f col key idx fty callee args sg,
  key <> "" -> lookup_fn fe key idx = Some sg -> s_lazy sg = false ->
  let '(tr, stop) := seq_traces (map (ev f) args) in
  match stop with
  | Some o => tr_of (ev (S f) (ACall col key idx fty callee args)) = tr /\
              (forall v, out_of (ev (S f) (ACall col key idx fty callee args)) <> OVal v)
  | None => exists vs, Forall2 (fun e v => out_of (ev f e) = OVal v) args vs /\
              ev (S f) (ACall col key idx fty callee args) =
              (let '(t, o) := apply_strict ops orc sg vs in (tr ++ t, o))
  end.
Proof.
  intros f col key idx fty callee args sg Hk Hl Hz.
  rewrite (eval_static_call ops orc fe rho f col key idx fty callee args sg Hk Hl). unfold do_call. rewrite Hz.
  pose proof (mmapM_seq_bind (ev f) args (apply_strict ops orc sg)) as Hm.
  destruct (seq_traces (map (ev f) args)) as [tr [o|]]; [split; apply Hm|exact Hm].
Qed.

Lemma eval_user_lazy : forall f col key idx fty callee c a b sg tc cv,
  key <> "" -> lookup_fn fe key idx = Some sg -> s_lazy sg = true -> sig_is_builtin sg = false -> s_name sg = "lazyif" ->
  ev f c = (tc, OVal (VBool cv)) ->
  ev (S f) (ACall col key idx fty callee [c; a; b]) =
    (let '(t, o) := ev f (if cv then a else b) in (EvHost "lazyif" [] :: tc ++ t, o)).
Proof.
  intros f col key idx fty callee c a b sg tc cv Hk Hl Hz Hb Hn Hc.
  rewrite (eval_static_call ops orc fe rho f col key idx fty callee [c; a; b] sg Hk Hl). unfold do_call, lazy_call.
  rewrite Hz, Hb, Hn, host_lazy_lazyif. cbn [map]. rewrite (lazy_if_val _ _ _ tc cv Hc).
  destruct cv; cbn; [destruct (ev f a)|destruct (ev f b)]; reflexivity.
Qed.

End C06Proofs.

Print Assumptions eval_if.
Print Assumptions eval_if_cond_fails.
Print Assumptions eval_and.
Print Assumptions eval_or.
Print Assumptions eval_list_order.
Print Assumptions eval_obj_order.
Print Assumptions eval_strict_call_order.
Print Assumptions eval_user_lazy.
