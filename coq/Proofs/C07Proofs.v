(* Proofs for Props/C07.v: envCheck accepts exactly the environments whose bindings have equal types; equal types
   ignore the order of object fields; two values of one interface-free Go struct type pass each other's envCheck,
   because both have the static type of that struct (ConvFacts.v). *)
From Coq Require Import List String Ascii Bool Arith NArith ZArith Lia Permutation.
From Yae Require Import Base.Sexp Model.Ty Gen.Generated Model.Unify Model.Num Model.Lexer Model.Cst Model.Check Model.Val
  Model.Render Model.ValSpec Model.Builtins Model.Eval Model.VM Model.Api Model.Conv Model.ConvSpec
  Proofs.C17Proofs Proofs.ConvFacts.
Import ListNotations.

Lemma env_check_true te rho :
  env_check te rho = true <->
  (forall n t, In (n, t) te -> exists v, assoc n rho = Some v /\ ty_eqb t (val_type v) = true).
Proof.
  unfold env_check. rewrite forallb_forall. split.
  - intros H n t Hin. specialize (H (n, t) Hin). simpl in H.
    destruct (assoc n rho) as [v|]; [|discriminate]. exists v. split; [reflexivity|assumption].
  - intros H [n t] Hin. simpl. destruct (H n t Hin) as [v [Ha Ht]]. rewrite Ha. exact Ht.
Qed.

Lemma reject : forall ops orc te code pool rho n t,
  In (n, t) te ->
  (assoc n rho = None \/ exists v, assoc n rho = Some v /\ ty_eqb t (val_type v) = false) ->
  api_call ops orc te code pool rho = (AErr, []).
Proof.
  intros ops orc te code pool rho n t Hin Hbad.
  assert (env_check te rho = false) as E.
  { destruct (env_check te rho) eqn:E; [exfalso|reflexivity].
    rewrite env_check_true in E. destruct (E n t Hin) as [v [Ha Ht]].
    destruct Hbad as [Hn|[v' [Ha' Ht']]]; congruence. }
  unfold api_call. rewrite E. reflexivity.
Qed.

Lemma accept : forall ops orc te code pool rho,
  (forall n t, In (n, t) te -> exists v, assoc n rho = Some v /\ ty_eqb t (val_type v) = true) ->
  api_call ops orc te code pool rho =
    (let '(t, o) := vm_run ops orc rho pool None 5000 code in
     (guarded "facade.go:makeCallable.func defers e.backStrace" (match o with OVal v => Some v | _ => None end), t)).
Proof.
  intros ops orc te code pool rho H.
  unfold api_call. apply env_check_true in H. rewrite H. reflexivity.
Qed.

Lemma field_order : forall fs fs',
  Permutation fs fs' -> wf_ty (TObj fs) = true -> ty_eqb (TObj fs) (TObj fs') = true.
Proof.
  intros fs fs' Hp Hw.
  apply wf_obj in Hw. destruct Hw as [Hnd Hwf].
  apply ty_eqb_obj_spec. split.
  - apply Permutation_length; assumption.
  - intros n t Hin. exists t. split.
    + apply ListFacts.In_assoc.
      * eapply Permutation_NoDup; [|exact Hnd]. apply Permutation_map. exact Hp.
      * eapply Permutation_in; eauto.
    + apply C17Proofs.eq_refl. eapply Hwf; eauto.
Qed.

Lemma ValOf_struct ops fs v x :
  ValOf ops (GStruct fs) v = Some x -> exists xs, x = VObj (TObj (own_fields xs)) (map snd xs).
Proof.
  rewrite ValOf_unfold, unwrap_top by exact I. destruct (is_nil v); [discriminate|]. intros H.
  destruct v; cbn [conv_body] in H; try discriminate H.
  destruct (conv_struct_some _ _ _ _ _ _ H) as [xs [_ [_ ->]]]. exists xs. reflexivity.
Qed.

Lemma TypeEnvOf_struct ops fs v :
  is_nil v = false ->
  TypeEnvOf ops (GStruct fs) v = match TypeOf ops (GStruct fs) v with Some (TObj fs') => Some fs' | _ => None end.
Proof.
  intros Hn. unfold TypeEnvOf. rewrite Hn.
  rewrite unwrap_env_top by exact I. reflexivity.
Qed.

Lemma ValEnvOf_struct ops fs v :
  is_nil v = false ->
  ValEnvOf ops (GStruct fs) v =
    match ValOf ops (GStruct fs) v with
    | Some (VObj (TObj fs') vs) => Some (combine (map fst fs') vs)
    | _ => None
    end.
Proof.
  intros Hn. unfold ValEnvOf. rewrite Hn.
  rewrite unwrap_env_top by exact I. reflexivity.
Qed.

Lemma TypeOf_sty ops t v T0 :
  iface_free t = true -> stable t v -> TypeOf ops t v = Some T0 -> exists T, sty t = Some T /\ ty_eqb T0 T = true.
Proof.
  intros Hi Hs H. rewrite TypeOf_eq in H. destruct (ValOf ops t v) as [x|] eqn:E.
  - injection H as <-. destruct (ValOf_sty ops _ _ _ E Hi Hs) as [T [HT [_ Eq]]]. exists T. split; assumption.
  - destruct (type_of_spec _ _ _ _ H) as [HT G]. exists T0. split; [exact HT|]. apply C17Proofs.eq_refl, G.
Qed.

Lemma same_go_type : forall ops t v1 v2 te rho,
  iface_free t = true -> shape_stable conv_fuel t v1 false = true -> shape_stable conv_fuel t v2 false = true ->
  (match t with GStruct _ => True | _ => False end) ->
  TypeEnvOf ops t v1 = Some te -> ValEnvOf ops t v2 = Some rho ->
  env_check te rho = true.
Proof.
  intros ops t v1 v2 te rho Hi Hs1 Hs2 Ht Hte Hrho.
  destruct t; try contradiction. clear Ht.
  assert (stable (GStruct fs) v1) as St1 by (exists conv_fuel; exact Hs1).
  assert (stable (GStruct fs) v2) as St2 by (exists conv_fuel; exact Hs2).
  clear Hs1 Hs2.
  (* the compile-time side: an object type equal to the static type *)
  rewrite TypeEnvOf_struct in Hte by exact (stable_nonnil _ _ St1).
  destruct (TypeOf ops (GStruct fs) v1) as [[]|] eqn:E1; try discriminate Hte. injection Hte as ->.
  destruct (TypeOf_sty ops _ _ _ Hi St1 E1) as [T [HT Hte_T]].
  (* the run-time side: the value's own object type, which the static type equals in turn *)
  rewrite ValEnvOf_struct in Hrho by exact (stable_nonnil _ _ St2).
  destruct (ValOf ops (GStruct fs) v2) as [x2|] eqn:E2; [|discriminate Hrho].
  destruct (ValOf_sty ops _ _ _ E2 Hi St2) as [T' [HT' [G ET']]].
  rewrite HT in HT'. injection HT' as <-.
  apply eqb_sym_good in ET'; [|exact (ValFacts.good_val_type _ (ValOf_good _ _ _ _ E2))|exact G].
  destruct (ValOf_struct _ _ _ _ E2) as [xs ->]. cbn [val_type] in ET'.
  injection Hrho as <-. rewrite combine_own_fields.
  pose proof (eqb_trans _ _ _ Hte_T ET') as Heq.
  apply ty_eqb_obj_spec in Heq. destruct Heq as [_ Hrel].
  apply env_check_true. intros n t Hin.
  destruct (Hrel n t Hin) as [t' [Ha Ht']].
  rewrite assoc_own_fields in Ha. destruct (assoc n xs) as [v|]; [|discriminate Ha].
  injection Ha as <-. exists v. split; [reflexivity|exact Ht'].
Qed.

Print Assumptions reject.
Print Assumptions accept.
Print Assumptions field_order.
Print Assumptions same_go_type.
