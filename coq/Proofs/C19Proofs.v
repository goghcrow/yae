(* C19 proofs: what debug evaluation (deval) records; the recorder (rec_all); forgetting the record ([erase]) turns
   deval into [eval]; the report renderer *)
From Coq Require Import List String Ascii Bool NArith ZArith Lia Permutation Sorted.
From Yae Require Import Base.Sexp Model.Ty Gen.Generated Model.Num Model.Lexer Model.Literal Model.Cst Model.Check
  Model.Val Model.Render Model.Builtins Model.Eval Model.Debug Proofs.ListFacts Proofs.EvalFacts.
From Yae Require Proofs.Tables.
Import ListNotations.
Local Open Scope list_scope.
Local Open Scope nat_scope.

Lemma record_literals : forall ops orc fe rho f a t r o,
  (match a with AStr _ | ANum _ _ | ATime _ | ABool _ => True | _ => False end) ->
  deval ops orc fe rho (S f) a = (t, r, o) -> r = [].
Proof.
  intros ops orc fe rho f a t r o Ha H.
  destruct a; try contradiction; cbn in H; unfold dret in H; inversion H; reflexivity.
Qed.

Lemma record_ident : forall ops orc fe rho f col name v,
  assoc name rho = Some v ->
  deval ops orc fe rho (S f) (AIdent col name) = ([], [(v, (col + 1)%Z)], OVal v).
Proof.
  intros ops orc fe rho f col name v H.
  cbn [deval]. rewrite H. reflexivity.
Qed.

Lemma recording_eq : forall col t r o,
  recording col (t, r, o) = (t, r ++ match o with OVal v => [(v, (col + 1)%Z)] | _ => [] end, o).
Proof. intros col t r o. destruct o; cbn; rewrite ?app_nil_r; reflexivity. Qed.

Lemma record_last : forall ops orc fe rho f a t r v col,
  (match a with
   | AIdent c _ | ACall c _ _ _ _ _ | ASub c _ _ _ | AMember c _ _ _ _ => c = col
   | _ => False end) ->
  deval ops orc fe rho f a = (t, r, OVal v) -> exists r0, r = r0 ++ [(v, (col + 1)%Z)].
Proof.
  intros ops orc fe rho f a t r v col Ha H.
  destruct f as [|f].
  - cbn in H. inversion H.
  - assert (Hrec : forall m : DM val, recording col m = (t, r, OVal v) -> exists r0, r = r0 ++ [(v, (col + 1)%Z)]).
    { intros [[t0 r0] o0] Hm. rewrite recording_eq in Hm. injection Hm as _ <- ->. exists r0. reflexivity. }
    destruct a; try contradiction; subst; cbn [deval] in H; exact (Hrec _ H).
Qed.

(* [if] records what the chosen branch records, then its own value *)
Lemma record_if : forall ops orc fe rho f col key idx fty callee c a b tc rc (cv : bool),
  (exists sg, lookup_fn fe key idx = Some sg /\ sig_is_builtin sg = true /\ s_lazy sg = true /\
              classify (s_name sg) (s_params sg) = Some BIf) -> key <> ""%string ->
  deval ops orc fe rho f c = (tc, rc, OVal (VBool cv)) ->
  forall t r o, deval ops orc fe rho (S f) (ACall col key idx fty callee [c; a; b]) = (t, r, o) ->
  exists ta ra oa, deval ops orc fe rho f (if cv then a else b) = (ta, ra, oa) /\ t = tc ++ ta /\
    r = rc ++ ra ++ (match oa with OVal v => [(v, (col + 1)%Z)] | _ => [] end).
Proof.
  intros ops orc fe rho f col key idx fty callee c a b tc rc cv [sg [Hl [Hb [Hz Hc]]]] Hkey Hcond t r o H.
  cbn [deval] in H.
  apply String.eqb_neq in Hkey. rewrite Hkey, Hl, Hz in H. cbn [map] in H.
  unfold d_apply_lazy in H. cbv zeta in H. rewrite Hb, Hc in H.
  rewrite Hcond in H.
  destruct (deval ops orc fe rho f (if cv then a else b)) as [[ta ra] oa] eqn:Esel.
  exists ta, ra, oa. split; [reflexivity|].
  destruct cv; rewrite Esel in H; cbn -[recording] in H; rewrite recording_eq in H; injection H as <- <- _;
    rewrite <- app_assoc; auto.
Qed.

Lemma record_if_unselected : forall ops orc fe rho f col key idx fty callee c a b tc rc,
  (exists sg, lookup_fn fe key idx = Some sg /\ sig_is_builtin sg = true /\ s_lazy sg = true /\
              classify (s_name sg) (s_params sg) = Some BIf) -> key <> ""%string ->
  deval ops orc fe rho f c = (tc, rc, OVal (VBool true)) ->
  forall t r o, deval ops orc fe rho (S f) (ACall col key idx fty callee [c; a; b]) = (t, r, o) ->
  exists ta ra oa, deval ops orc fe rho f a = (ta, ra, oa) /\ t = tc ++ ta /\
    r = rc ++ ra ++ (match oa with OVal v => [(v, (col + 1)%Z)] | _ => [] end).
Proof.
  intros ops orc fe rho f col key idx fty callee c a b tc rc.
  exact (record_if ops orc fe rho f col key idx fty callee c a b tc rc true).
Qed.

(* what [rec_one] descends on *)
Definition cols_from (col : Z) (vs : list recd) : nat := List.length (filter (fun e => Z.leb col (snd e)) vs).

Lemma cols_from_cons col e vs : cols_from col (e :: vs) = (if Z.leb col (snd e) then 1 else 0) + cols_from col vs.
Proof. unfold cols_from. cbn [filter]. destruct (Z.leb col (snd e)); reflexivity. Qed.

Lemma cols_from_le : forall col vs, cols_from col vs <= List.length vs.
Proof.
  intros col vs. induction vs as [|e vs IH]; [cbn; lia|].
  rewrite cols_from_cons. cbn [List.length]. destruct (Z.leb col (snd e)); lia.
Qed.

Lemma cols_from_next : forall col vs,
  cols_from (col + 1)%Z vs + (if existsb (fun e => Z.eqb (snd e) col) vs then 1 else 0) <= cols_from col vs.
Proof.
  intros col vs. induction vs as [|e vs IH]; [cbn; lia|]. cbn [existsb]. rewrite !cols_from_cons.
  destruct (existsb (fun e => Z.eqb (snd e) col) vs); destruct (Z.eqb_spec (snd e) col), (Z.leb_spec (col + 1)%Z (snd e)), (Z.leb_spec col (snd e));
    cbn [orb]; lia.
Qed.

Lemma existsb_col_in : forall col (vs : list recd),
  existsb (fun e => Z.eqb (snd e) col) vs = true <-> In col (map snd vs).
Proof.
  intros col vs. rewrite existsb_exists, in_map_iff. split.
  - intros [x [Hin Hx]]. apply Z.eqb_eq in Hx. exists x. auto.
  - intros [x [Hx Hin]]. exists x. split; [auto|]. apply Z.eqb_eq. auto.
Qed.

Lemma rec_one_ok : forall f vs v col,
  cols_from col vs < f ->
  exists col', rec_one f vs v col = vs ++ [(v, col')] /\ (col <= col')%Z /\ ~ In col' (map snd vs) /\
               (~ In col (map snd vs) -> col' = col).
Proof.
  induction f as [|f IH]; intros vs v col Hf; [lia|].
  cbn [rec_one].
  destruct (existsb (fun e => Z.eqb (snd e) col) vs) eqn:E.
  - assert (Hlt := cols_from_next col vs). rewrite E in Hlt.
    destruct (IH vs v (col + 1)%Z) as [col' [H1 [H2 [H3 H4]]]]; [lia|].
    exists col'. split; [exact H1|]. split; [lia|]. split; [exact H3|].
    intros Hn. exfalso. apply Hn. apply existsb_col_in. exact E.
  - exists col. split; [reflexivity|]. split; [lia|]. split.
    + intros Hin. apply existsb_col_in in Hin. congruence.
    + reflexivity.
Qed.

Lemma rec_fold_spec : forall raw acc,
  NoDup (map snd acc) ->
  exists tail,
    fold_left (fun acc e => rec_one (S (len acc)) acc (fst e) (snd e)) raw acc = acc ++ tail /\
    map fst tail = map fst raw /\
    Forall2 (fun e e' : recd => (snd e <= snd e')%Z) raw tail /\
    NoDup (map snd (acc ++ tail)) /\
    (NoDup (map snd (acc ++ raw)) -> tail = raw).
Proof.
  induction raw as [|e raw IH]; intros acc Hnd.
  - exists []. cbn. rewrite app_nil_r. repeat split; auto.
  - cbn [fold_left].
    destruct (rec_one_ok (S (len acc)) acc (fst e) (snd e)) as [col' [H1 [H2 [H3 H4]]]].
    { unfold len. apply Nat.lt_succ_r. apply cols_from_le. }
    unfold recd in *. rewrite H1.
    assert (Hnd' : NoDup (map snd (acc ++ [(fst e, col')]))).
    { rewrite map_app. apply (Permutation_NoDup (Permutation_cons_append _ _)). constructor; assumption. }
    destruct (IH (acc ++ [(fst e, col')]) Hnd') as [tail [T1 [T2 [T3 [T4 T5]]]]].
    exists ((fst e, col') :: tail).
    rewrite T1. rewrite <- app_assoc. cbn [app].
    split; [reflexivity|]. split; [cbn; rewrite T2; reflexivity|].
    split; [constructor; [cbn; exact H2 | exact T3]|].
    split; [rewrite <- app_assoc in T4; exact T4|].
    intros Hall.
    assert (Hcol : col' = snd e).
    { apply H4. intros Hin. rewrite map_app in Hall. cbn in Hall.
      apply NoDup_remove_2 in Hall. apply Hall. apply in_or_app. left. exact Hin. }
    subst col'. rewrite <- surjective_pairing in *.
    rewrite T5; [reflexivity|]. rewrite <- app_assoc. exact Hall.
Qed.

Lemma rec_all_spec : forall raw,
  map fst (rec_all raw) = map fst raw /\
  Forall2 (fun e e' => (snd e <= snd e')%Z) raw (rec_all raw) /\
  NoDup (map snd (rec_all raw)) /\
  (NoDup (map snd raw) -> rec_all raw = raw).
Proof.
  intros raw. unfold rec_all.
  destruct (rec_fold_spec raw []) as [tail [T1 [T2 [T3 [T4 T5]]]]]; [constructor|].
  unfold recd in *. rewrite T1. cbn [app] in *. repeat split; auto.
Qed.

Definition erase {X} (m : DM X) : M X := let '(t, _, o) := m in (t, o).

Lemma erase_dbind : forall X Y (m : DM X) (k : X -> DM Y) (m' : M X) (k' : X -> M Y),
  erase m = m' -> (forall x, erase (k x) = k' x) -> erase (dbind m k) = mbind m' k'.
Proof.
  intros X Y m k m' k' Hm Hk. destruct m as [[t r] o]. cbn in Hm. subst m'.
  destruct o as [x|e|e]; cbn; try reflexivity.
  specialize (Hk x). destruct (k x) as [[t' r'] o']. cbn in Hk. rewrite <- Hk. reflexivity.
Qed.

Lemma erase_dlift : forall X (m : M X), erase (dlift m) = m.
Proof. intros X [t o]. reflexivity. Qed.

Lemma erase_dret : forall X (x : X), erase (dret x) = ret x.
Proof. reflexivity. Qed.

Lemma erase_recording : forall col (m : DM val), erase (recording col m) = erase m.
Proof.
  intros col [[t r] o]. rewrite recording_eq. reflexivity.
Qed.

Lemma erase_dmapM : forall X Y (f : X -> DM Y) (g : X -> M Y) l,
  (forall x, erase (f x) = g x) -> erase (dmapM f l) = mmapM g l.
Proof.
  intros X Y f g l H. induction l as [|x l IH]; [reflexivity|].
  cbn [dmapM mmapM]. apply erase_dbind; [apply H|]. intros y.
  apply erase_dbind; [exact IH|]. intros ys. reflexivity.
Qed.

(* the local [lazyif] and [conj stop_on] of [d_apply_lazy], named as Eval names its own; [d_short true] is OR *)
Definition d_lazy_if (ths : list (unit -> DM val)) : DM val :=
  match ths with
  | [c; a; b] => dbind (c tt) (fun cv => dbind (d_as_bool cv) (fun cb : bool => if cb then a tt else b tt))
  | _ => dlift (fault XOther)
  end.

Definition d_short (stop_on : bool) (ths : list (unit -> DM val)) : DM val :=
  match ths with
  | [a; b] => dbind (a tt) (fun av => dbind (d_as_bool av) (fun ab : bool =>
                if Bool.eqb ab stop_on then dret (VBool stop_on)
                else dbind (b tt) (fun bv => dbind (d_as_bool bv) (fun bb : bool => dret (VBool bb)))))
  | _ => dlift (fault XOther)
  end.

Lemma d_apply_lazy_eq sg ths : d_apply_lazy sg ths =
  if sig_is_builtin sg then
    match classify (s_name sg) (s_params sg) with
    | Some BIf => d_lazy_if ths | Some BAnd => d_short false ths | Some BOr => d_short true ths
    | _ => dlift (fault XOther)
    end
  else if String.eqb (s_name sg) "lazyif" then dbind (dlift (emit (EvHost "lazyif" []))) (fun _ => d_lazy_if ths)
  else if String.eqb (s_name sg) "both" then dbind (dlift (emit (EvHost "both" []))) (fun _ => d_short false ths)
  else dlift (fault XOther).
Proof. reflexivity. Qed.

Lemma erase_lazy_if : forall X (F : X -> DM val) (G : X -> M val) args, (forall a, erase (F a) = G a) ->
  erase (d_lazy_if (map (fun x (_ : unit) => F x) args)) = lazy_if (map (fun x (_ : unit) => G x) args).
Proof.
  intros X F G args H. destruct args as [|c [|a [|b [|]]]]; try reflexivity. cbn [map]. unfold d_lazy_if, lazy_if.
  apply erase_dbind; [apply H|]. intros cv.
  apply erase_dbind; [apply erase_dlift|]. intros [|]; apply H.
Qed.

Lemma erase_short : forall (s : bool) X (F : X -> DM val) (G : X -> M val) args, (forall a, erase (F a) = G a) ->
  erase (d_short s (map (fun x (_ : unit) => F x) args)) = (if s then lazy_or else lazy_and) (map (fun x (_ : unit) => G x) args).
Proof.
  intros s X F G args H. destruct args as [|a [|b [|]]]; try (destruct s; reflexivity). cbn [map].
  assert (Hb : erase (dbind (F b) (fun bv => dbind (d_as_bool bv) (fun bb : bool => dret (VBool bb)))) =
               mbind (G b) (fun bv => mbind (as_bool bv) (fun bb : bool => ret (VBool bb)))).
  { apply erase_dbind; [apply H|]. intros bv. apply erase_dbind; [apply erase_dlift|]. reflexivity. }
  destruct s; unfold d_short, lazy_or, lazy_and;
    (apply erase_dbind; [apply H|]; intros av; apply erase_dbind; [apply erase_dlift|]).
  - intros [|]; [reflexivity|exact Hb].
  - intros [|]; [exact Hb|reflexivity].
Qed.

Lemma builtin_not_host_lazy : forall sg, sig_is_builtin sg = true ->
  String.eqb (s_name sg) "lazyif" = false /\ String.eqb (s_name sg) "both" = false.
Proof.
  intros sg H. unfold sig_is_builtin in H. apply existsb_exists in H.
  destruct H as [[[[n ps] r] lz] [Hin Hx]].
  apply andb_true_iff in Hx. destruct Hx as [Hx _]. apply andb_true_iff in Hx. destruct Hx as [Hx _].
  apply String.eqb_eq in Hx. subst.
  pose proof (proj1 (forallb_forall _ _) Tables.builtins_not_host_lazy _ Hin) as Hall. cbn in Hall.
  apply andb_true_iff in Hall. destruct Hall as [H1 H2].
  apply negb_true_iff in H1. apply negb_true_iff in H2. cbn [s_name]. auto.
Qed.

Lemma host_lazy_other name ths :
  String.eqb name "lazyif" = false -> String.eqb name "both" = false -> host_lazy name ths = fault XOther.
Proof. intros N1 N2. unfold host_lazy. rewrite N1, N2. reflexivity. Qed.

(* [d_apply_lazy] asks first whether the function is a built-in, [apply_lazy] falls through to [host_lazy] when [classify]
   finds nothing; they agree because no built-in is called "lazyif" or "both" *)
Lemma erase_apply_lazy : forall sg X (F : X -> DM val) (G : X -> M val) args, (forall a, erase (F a) = G a) ->
  erase (d_apply_lazy sg (map (fun x (_ : unit) => F x) args)) = lazy_call sg (map (fun x (_ : unit) => G x) args).
Proof.
  intros sg X F G args H. rewrite d_apply_lazy_eq. unfold lazy_call.
  destruct (sig_is_builtin sg) eqn:Eb.
  - destruct (builtin_not_host_lazy sg Eb) as [N1 N2].
    rewrite apply_lazy_eq, (host_lazy_other _ _ N1 N2).
    destruct (classify (s_name sg) (s_params sg)) as [[]|]; try reflexivity.
    + apply erase_lazy_if, H.
    + apply (erase_short false), H.
    + apply (erase_short true), H.
  - destruct (String.eqb (s_name sg) "lazyif") eqn:E1.
    { apply String.eqb_eq in E1. rewrite E1, host_lazy_lazyif.
      apply erase_dbind; [reflexivity|]. intros _. apply erase_lazy_if, H. }
    destruct (String.eqb (s_name sg) "both") eqn:E2.
    { apply String.eqb_eq in E2. rewrite E2, host_lazy_both.
      apply erase_dbind; [reflexivity|]. intros _. apply (erase_short false), H. }
    rewrite (host_lazy_other _ _ E1 E2). reflexivity.
Qed.

(* Debug's inline map loop, named as EvalFacts names Eval's *)
Definition dmap_go (ops : numops) (g : aexpr -> DM val) :=
  fix go (kvs : list (aexpr * aexpr)) (acc : list (list N * val)) : DM (list (list N * val)) :=
    match kvs with
    | [] => dret acc
    | (k, v) :: r =>
        dbind (g k) (fun kv => dbind (dlift (key_of ops kv)) (fun kk => dbind (g v) (fun vv => go r (kput kk vv acc))))
    end.

Lemma erase_map_go : forall ops g g', (forall a, erase (g a) = g' a) ->
  forall l acc, erase (dmap_go ops g l acc) = map_go ops g' l acc.
Proof.
  intros ops g g' H l. induction l as [|[k v] l IHl]; intros acc; [reflexivity|].
  apply erase_dbind; [apply H|]. intros kv.
  apply erase_dbind; [apply erase_dlift|]. intros kk.
  apply erase_dbind; [apply H|]. intros vv. apply IHl.
Qed.

Lemma erase_deval : forall ops orc fe rho f a,
  erase (deval ops orc fe rho f a) = eval ops orc fe rho f a.
Proof.
  intros ops orc fe rho f. induction f as [|f IH]; intros a; [reflexivity|].
  assert (Hcall : forall sg args,
    erase (if s_lazy sg then d_apply_lazy sg (map (fun x (_ : unit) => deval ops orc fe rho f x) args)
           else dbind (dmapM (deval ops orc fe rho f) args) (fun vs => dlift (apply_strict ops orc sg vs))) =
    do_call ops orc fe rho f sg args).
  { intros sg args. unfold do_call. destruct (s_lazy sg).
    - apply erase_apply_lazy. exact IH.
    - apply erase_dbind; [apply erase_dmapM; exact IH|]. intros vs. apply erase_dlift. }
  destruct a; cbn [deval eval]; try reflexivity.
  - (* AList *)
    destruct es as [|e es]; [reflexivity|].
    apply erase_dbind; [apply erase_dmapM; exact IH|]. intros vs. reflexivity.
  - (* AMap *)
    destruct kvs as [|kv kvs]; [reflexivity|].
    apply erase_dbind; [|intros vs; reflexivity].
    exact (erase_map_go ops _ _ IH (kv :: kvs) []).
  - (* AObj *)
    destruct fs as [|nf fs]; [reflexivity|].
    apply erase_dbind; [apply erase_dmapM; intros x; apply IH|]. intros vs. reflexivity.
  - (* AIdent *)
    rewrite erase_recording. destruct (assoc name rho); reflexivity.
  - (* ACall *)
    rewrite erase_recording.
    destruct (String.eqb resolved ""%string).
    + apply erase_dbind; [apply IH|]. intros fv.
      destruct fv; try reflexivity. destruct t; try reflexivity. apply Hcall.
    + destruct (lookup_fn fe resolved index); [apply Hcall|reflexivity].
  - (* ASub *)
    rewrite erase_recording.
    apply erase_dbind; [apply IH|]. intros x. destruct x; try reflexivity.
    + apply erase_dbind; [apply IH|]. intros iv.
      apply erase_dbind; [apply erase_dlift|]. intros n.
      destruct (_ || _); [reflexivity|]. destruct (nth_error _ _); reflexivity.
    + apply erase_dbind; [apply IH|]. intros kv.
      apply erase_dbind; [apply erase_dlift|]. intros kk.
      destruct (kget kk kvs); reflexivity.
  - (* AMember *)
    rewrite erase_recording.
    apply erase_dbind; [apply IH|]. intros ov. destruct ov; try reflexivity.
    destruct (obj_load _ _ _ _); reflexivity.
Qed.

Lemma transparent : forall ops orc fe rho f a t r o,
  deval ops orc fe rho f a = (t, r, o) -> eval ops orc fe rho f a = (t, o).
Proof.
  intros ops orc fe rho f a t r o H. rewrite <- erase_deval. rewrite H. reflexivity.
Qed.

Definition nonl (l : list N) : Prop := ~ In 10%N l.

Definition drop_lf (r : list N) : list N := match r with 10%N :: r' => r' | _ => r end.

(* [split_lines] matches on the numerals 13 and 10, which is a decision tree on the bits of the rune: four levels of
   it reach every leaf *)
Lemma split_lines_cons : forall c r cur,
  split_lines (c :: r) cur =
  if N.eqb c 13 then rev cur :: split_lines (drop_lf r) []
  else if N.eqb c 10 then rev cur :: split_lines r []
  else split_lines r (c :: cur).
Proof.
  intros c r cur.
  destruct c as [|p]; [reflexivity|].
  do 4 (try (destruct p as [p|p|]; try reflexivity)).
  destruct r as [|d r]; [reflexivity|].
  destruct d as [|q]; [reflexivity|].
  do 4 (try (destruct q as [q|q|]; try reflexivity)).
Qed.

Lemma split_lines_nonempty : forall l cur, split_lines l cur <> [].
Proof.
  induction l as [|c r IH]; intros cur; [discriminate|].
  rewrite split_lines_cons. destruct (N.eqb c 13); [discriminate|]. destruct (N.eqb c 10); [discriminate|]. apply IH.
Qed.

Lemma drop_lf_cons : forall d r, drop_lf (d :: r) = if N.eqb d 10 then r else d :: r.
Proof. intros [|q] r; [reflexivity|]. do 4 (try (destruct q as [q|q|]; try reflexivity)). Qed.

Lemma split_lines_drop_lf : forall r, incl (split_lines (drop_lf r) []) (split_lines r []).
Proof.
  intros [|d r]; [apply incl_refl|]. rewrite drop_lf_cons.
  destruct (N.eqb_spec d 10) as [->|_]; [apply incl_tl|]; apply incl_refl.
Qed.

Lemma split_lines_nonl : forall l cur, nonl cur -> Forall nonl (split_lines l cur).
Proof.
  induction l as [|c r IH]; intros cur Hc.
  - constructor; [|constructor]. unfold nonl. rewrite <- in_rev. exact Hc.
  - rewrite split_lines_cons.
    assert (Hrev : nonl (rev cur)) by (unfold nonl; rewrite <- in_rev; exact Hc).
    assert (Hr : Forall nonl (split_lines r [])) by (apply IH; intros []).
    destruct (N.eqb c 13); [constructor; [exact Hrev|exact (incl_Forall (split_lines_drop_lf r) Hr)]|].
    destruct (N.eqb_spec c 10) as [E|E]; [constructor; assumption|].
    apply IH. intros [Hin|Hin]; [congruence|exact (Hc Hin)].
Qed.

Lemma split_lines_id : forall l cur, nonl l -> ~ In 13%N l -> split_lines l cur = [rev cur ++ l].
Proof.
  induction l as [|c r IH]; intros cur H10 H13.
  - cbn. rewrite app_nil_r. reflexivity.
  - rewrite split_lines_cons.
    destruct (N.eqb_spec c 13) as [E|E]; [exfalso; apply H13; left; auto|].
    destruct (N.eqb_spec c 10) as [E'|E']; [exfalso; apply H10; left; auto|].
    rewrite IH.
    + cbn [rev]. rewrite <- app_assoc. reflexivity.
    + intros Hin. apply H10. right. exact Hin.
    + intros Hin. apply H13. right. exact Hin.
Qed.

Lemma split_lines_single : forall l cur, List.length (split_lines l cur) = 1 -> nonl l.
Proof.
  induction l as [|c r IH]; intros cur H; [intros []|].
  rewrite split_lines_cons in H.
  assert (Hmore : forall x l', List.length (x :: split_lines l' []) <> 1).
  { intros x l' Hl. pose proof (split_lines_nonempty l' []) as Hne.
    destruct (split_lines l' []); [congruence|cbn in Hl; lia]. }
  destruct (N.eqb c 13); [destruct (Hmore _ _ H)|].
  destruct (N.eqb_spec c 10) as [E10|E10]; [destruct (Hmore _ _ H)|].
  intros [Hin|Hin]; [congruence|]. exact (IH _ H Hin).
Qed.

Lemma place_in : forall t s c x, In x (place t s c) -> In x t \/ x = 32%N \/ In x s.
Proof.
  intros t s c x H. unfold place in H.
  assert (Hline : forall y, In y (t ++ repeat 32%N (c - len t)) -> In y t \/ y = 32%N).
  { intros y Hy. apply in_app_or in Hy. destruct Hy as [Hy|Hy]; [auto|]. right. eapply repeat_spec. exact Hy. }
  destruct (Nat.ltb _ _).
  - apply in_app_or in H. destruct H as [H|H]; [|auto].
    apply in_firstn in H. destruct (Hline _ H); auto.
  - apply in_app_or in H. destruct H as [H|H].
    + apply in_firstn in H. destruct (Hline _ H); auto.
    + apply in_app_or in H. destruct H as [H|H]; [auto|].
      apply in_skipn in H. destruct (Hline _ H); auto.
Qed.

Lemma place_nonl : forall t s c, nonl t -> nonl s -> nonl (place t s c).
Proof.
  intros t s c Ht Hs H. apply place_in in H. destruct H as [H|[H|H]]; [auto|discriminate|auto].
Qed.

(* columns count from 1 *)
Definition holds (t : list N) (col : nat) (tv : list N) : Prop :=
  exists pre post, t = pre ++ tv ++ post /\ List.length pre = col - 1.

Lemma holds_firstn : forall t col tv, holds t col tv -> firstn (len tv) (skipn (col - 1) t) = tv.
Proof.
  intros t col tv (pre & post & -> & <-).
  rewrite skipn_app, skipn_all, Nat.sub_diag. cbn [skipn app].
  unfold len. rewrite firstn_app, firstn_all, Nat.sub_diag. cbn [firstn]. apply app_nil_r.
Qed.

Lemma place_holds : forall t s c, holds (place t s c) c s.
Proof.
  intros t s c. unfold place, len.
  set (line := t ++ repeat 32%N (c - List.length t)).
  assert (Hlen : c <= List.length line).
  { unfold line. rewrite app_length, repeat_length. lia. }
  assert (Hpre : List.length (firstn (c - 1) line) = c - 1) by (rewrite firstn_length; lia).
  destruct (Nat.ltb _ _).
  - exists (firstn (c - 1) line), []. rewrite app_nil_r. auto.
  - exists (firstn (c - 1) line), (skipn (c - 1 + List.length s) line). auto.
Qed.

Lemma place_keeps : forall t s c col tv,
  holds t col tv -> c <= col - 1 -> c - 1 + List.length s <= col - 1 -> holds (place t s c) col tv.
Proof.
  intros t s c col tv [pre [post [Ht Hpre]]] Hc Hstop. unfold place, len.
  assert (Hlen : List.length t = List.length pre + List.length tv + List.length post).
  { rewrite Ht. rewrite !app_length. lia. }
  replace (c - List.length t) with 0 by lia. cbn [repeat]. rewrite app_nil_r.
  destruct (Nat.ltb_spec (List.length t) (c - 1 + List.length s)) as [Hlt|Hge]; [lia|].
  exists (firstn (c - 1) pre ++ s ++ skipn (c - 1 + List.length s) pre), post. split.
  - rewrite Ht.
    rewrite firstn_app. replace (c - 1 - List.length pre) with 0 by lia. cbn [firstn]. rewrite app_nil_r.
    rewrite skipn_app. replace (c - 1 + List.length s - List.length pre) with 0 by lia. cbn [skipn].
    rewrite <- !app_assoc. reflexivity.
  - rewrite !app_length, firstn_length, skipn_length. lia.
Qed.

(* besides leaving the line alone, the two branches of [try_lines]: a bar at [start], or, for a one-line text that ends
   left of what the line holds, the text itself *)
Definition step (str : list N) (start : Z) (single : bool) (l l' : line) : Prop :=
  l' = l \/
  (1 <= start)%Z /\
  ((fst l' = place (fst l) [124%N] (Z.to_nat start) /\ (snd l' = (start + 1)%Z \/ snd l' = snd l)) \/
   (single = true /\ (start + Z.of_nat (len str) < snd l)%Z /\ l' = (place (fst l) str (Z.to_nat start), start))).

Definition placed (str : list N) (start : Z) (l' : line) : Prop :=
  exists t, l' = (place t str (Z.to_nat start), start).

Lemma steps_refl : forall str start single r, Forall2 (step str start single) r r.
Proof. intros. apply Forall2_diag, Forall_forall. intros l _. left. reflexivity. Qed.

Lemma try_lines_step : forall ls j str start single ls' ok,
  j <> 0 -> (1 <= start)%Z -> try_lines ls j str start (start + Z.of_nat (len str)) single = (ls', ok) ->
  Forall2 (step str start single) ls ls' /\ (ok = true -> Exists (placed str start) ls').
Proof.
  intros ls. induction ls as [|[txt sc] r IH]; intros j str start single ls' ok Hj Hs H.
  - cbn in H. inversion H; subst. split; [constructor|discriminate].
  - cbn [try_lines] in H.
    destruct (Nat.eqb_spec j 0) as [E|_]; [contradiction|].
    destruct (single && Z.ltb _ sc) eqn:Es.
    + inversion H; subst; clear H. apply andb_true_iff in Es. destruct Es as [Es1 Es2].
      apply Z.ltb_lt in Es2. split.
      * constructor; [|apply steps_refl]. right. split; [exact Hs|]. right. auto.
      * intros _. constructor. exists txt. reflexivity.
    + destruct (try_lines r (S j) str start _ single) as [r' ok'] eqn:Er.
      inversion H; subst; clear H.
      destruct (IH (S j) str start single r' ok) as [IH1 IH2]; [lia|exact Hs|exact Er|]. split.
      * constructor; [|exact IH1]. right. split; [exact Hs|]. left. cbn [fst snd]. split; [reflexivity|].
        destruct (Nat.ltb 1 j); auto.
      * intros Hok. apply Exists_cons_tl. apply IH2. exact Hok.
Qed.

Definition new_lines (start : Z) (strs : list (list N)) : list line :=
  map (fun s => (place [] s (Z.to_nat start), start)) strs.

Lemma render_value_spec : forall ops src s0 rest e b,
  let str := runes_of_bytes (render ops (fst e)) in
  let strs := split_lines str [] in
  exists rest' extra,
    render_value ops ((src, s0) :: rest) e b = (src, s0) :: rest' ++ extra /\
    Forall2 (step str (snd e) (Nat.eqb (len strs) 1)) rest rest' /\
    (extra = [] \/ extra = new_lines (snd e) strs) /\
    ((1 <= snd e)%Z -> b = false -> Exists (placed str (snd e)) rest' \/ extra = new_lines (snd e) strs).
Proof.
  intros ops src s0 rest e b str strs. unfold render_value.
  destruct (Z.ltb_spec (snd e) 1) as [Hlt|Hge].
  { exists rest, []. rewrite app_nil_r. split; [reflexivity|]. split; [apply steps_refl|]. split; [auto|lia]. }
  destruct b.
  { exists rest, []. rewrite app_nil_r. split; [reflexivity|]. split; [apply steps_refl|]. split; [auto|discriminate]. }
  cbv zeta. cbn [try_lines Nat.eqb]. fold str. fold strs.
  destruct (try_lines rest 1 str (snd e) (snd e + Z.of_nat (len str)) (Nat.eqb (len strs) 1)) as [r' ok] eqn:Er.
  apply try_lines_step in Er; [|lia|exact Hge]. destruct Er as [E1 E2].
  destruct ok.
  - exists r', []. rewrite app_nil_r. split; [reflexivity|]. split; [exact E1|]. split; [left; reflexivity|].
    intros _ _. left. exact (E2 eq_refl).
  - exists r', (new_lines (snd e) strs). split; [reflexivity|]. split; [exact E1|]. split; [|intros _ _]; right; reflexivity.
Qed.

Fixpoint joinl (l : list line) : list N :=
  match l with
  | [] => []
  | [(t, _)] => t
  | (t, _) :: r => t ++ [10%N] ++ joinl r
  end.

Lemma report_joinl : forall ops src vs,
  report ops src vs = joinl (render_values ops [(src, 0%Z); ([], 0%Z)] (sort_desc vs)).
Proof. reflexivity. Qed.

Lemma joinl_cons : forall x rest, rest <> [] -> joinl (x :: rest) = fst x ++ 10%N :: joinl rest.
Proof. intros [t s] rest H. destruct rest; [contradiction|reflexivity]. Qed.

Lemma joinl_find : forall a x l b, exists before after,
  joinl (x :: a ++ l :: b) = before ++ 10%N :: fst l ++ after /\ (after = [] \/ hd 0%N after = 10%N).
Proof.
  induction a as [|y a IH]; intros x l b.
  - cbn [app]. rewrite joinl_cons by discriminate.
    destruct b as [|z b].
    + exists (fst x), []. destruct l as [t s]. cbn. rewrite app_nil_r. auto.
    + exists (fst x), (10%N :: joinl (z :: b)). rewrite joinl_cons by discriminate. auto.
  - cbn [app]. rewrite joinl_cons by discriminate.
    destruct (IH y l b) as [before [after [H1 H2]]].
    exists (fst x ++ 10%N :: before), after. rewrite H1. rewrite <- app_assoc. auto.
Qed.

Definition lnonl (l : line) : Prop := nonl (fst l).

(* [snd l] is the leftmost column the line holds; were it right of [col], the text of a later value could be written
   over [tv] *)
Definition shows (col : Z) (tv : list N) (l : line) : Prop :=
  (snd l <= col)%Z /\ holds (fst l) (Z.to_nat col) tv.

Lemma step_nonl : forall str start single l l',
  (single = true -> nonl str) -> step str start single l l' -> lnonl l -> lnonl l'.
Proof.
  intros str start single l l' Hs Hstep Hl. unfold lnonl in *.
  destruct Hstep as [H|[_ [[H _]|[H1 [_ H]]]]].
  - subst. exact Hl.
  - rewrite H. apply place_nonl; [exact Hl|]. intros [E|[]]. discriminate.
  - subst l'. cbn [fst]. apply place_nonl; auto.
Qed.

Lemma step_shows : forall col tv str start single l l',
  (start < col)%Z -> step str start single l l' -> shows col tv l -> shows col tv l'.
Proof.
  intros col tv str start single l l' Hstart Hstep [Hsc Hh]. unfold shows.
  destruct Hstep as [H|[Hs [[H1 H2]|[_ [H1 H2]]]]].
  - subst. auto.
  - split; [destruct H2 as [H2|H2]; rewrite H2; lia|].
    rewrite H1. apply place_keeps; [exact Hh|lia|cbn; lia].
  - unfold len in H1. subst l'. cbn [fst snd]. split; [lia|].
    apply place_keeps; [exact Hh|lia|lia].
Qed.

(* kept by [render_values]: the source stays the first line, a second line exists, and no line below the first has a
   line feed in it *)
Definition lines_ok (src : list N) (ls : list line) : Prop :=
  exists s0 rest, ls = (src, s0) :: rest /\ rest <> [] /\ Forall lnonl rest.

Definition lines_show (src : list N) (col : Z) (tv : list N) (ls : list line) : Prop :=
  lines_ok src ls /\ Exists (shows col tv) (tl ls).

Lemma lines_ok_init : forall src, lines_ok src [(src, 0%Z); ([], 0%Z)].
Proof.
  intros src. exists 0%Z, [([], 0%Z)]. split; [reflexivity|]. split; [discriminate|].
  constructor; [intros []|constructor].
Qed.

Lemma new_lines_nonl : forall start str, Forall lnonl (new_lines start (split_lines str [])).
Proof.
  intros start str. unfold new_lines. apply Forall_forall. intros l Hin.
  apply in_map_iff in Hin. destruct Hin as [s [Hl Hs]]. subst l. unfold lnonl. cbn [fst].
  apply place_nonl; [intros []|].
  pose proof (split_lines_nonl str [] (fun H => H)) as Hall. rewrite Forall_forall in Hall. apply Hall. exact Hs.
Qed.

Lemma render_value_ok : forall ops src ls e b, lines_ok src ls -> lines_ok src (render_value ops ls e b).
Proof.
  intros ops src ls e b (s0 & rest & -> & Hne & Hnl).
  destruct (render_value_spec ops src s0 rest e b) as (rest' & extra & -> & Hstep & Hextra & _).
  exists s0, (rest' ++ extra). split; [reflexivity|]. split; [destruct Hstep; [contradiction|discriminate]|].
  apply Forall_app. split.
  - eapply Forall2_Forall; [|exact Hstep|exact Hnl].
    intros x y Hxy Hx. eapply step_nonl; [|exact Hxy|exact Hx].
    intros Hs. apply Nat.eqb_eq in Hs. exact (split_lines_single _ _ Hs).
  - destruct Hextra as [-> | ->]; [constructor|apply new_lines_nonl].
Qed.

Lemma render_values_ok : forall ops src vs ls, lines_ok src ls -> lines_ok src (render_values ops ls vs).
Proof.
  intros ops src vs. induction vs as [|e r IH]; intros ls H; [exact H|].
  cbn [render_values]. apply IH, render_value_ok, H.
Qed.

Lemma report_first_line : forall ops src vs, exists rest, report ops src vs = src ++ 10%N :: rest.
Proof.
  intros ops src vs. rewrite report_joinl.
  destruct (render_values_ok ops src (sort_desc vs) _ (lines_ok_init src)) as (s0 & rest & H & Hne & _).
  rewrite H, joinl_cons by exact Hne. cbn [fst]. eauto.
Qed.

Lemma first_line : forall ops src vs,
  ~ In 10%N src -> exists rest, report ops src vs = src ++ 10%N :: rest.
Proof. intros ops src vs _. apply report_first_line. Qed.

Lemma render_value_keeps : forall ops src col tv ls e b,
  (snd e < col)%Z -> lines_show src col tv ls -> lines_show src col tv (render_value ops ls e b).
Proof.
  intros ops src col tv ls e b Hlt [Hinv Hshows]. split; [apply render_value_ok, Hinv|].
  destruct Hinv as (s0 & rest & -> & _). cbn [tl] in Hshows.
  destruct (render_value_spec ops src s0 rest e b) as (rest' & extra & -> & Hstep & _).
  cbn [tl]. apply Exists_app. left. eapply Forall2_Exists; [|exact Hstep|exact Hshows].
  intros x y. apply step_shows, Hlt.
Qed.

Lemma render_value_self : forall ops src ls v col,
  (1 <= col)%Z ->
  let txt := runes_of_bytes (render ops v) in
  nonl txt -> ~ In 13%N txt ->
  lines_ok src ls -> lines_show src col txt (render_value ops ls (v, col) false).
Proof.
  intros ops src ls v col Hcol txt H10 H13 Hinv. split; [apply render_value_ok, Hinv|].
  destruct Hinv as (s0 & rest & -> & _).
  destruct (render_value_spec ops src s0 rest (v, col) false) as (rest' & extra & -> & _ & _ & Hself).
  cbn [tl]. apply Exists_app. cbn [fst snd] in Hself. fold txt in Hself.
  destruct (Hself Hcol eq_refl) as [Hp | ->].
  - left. eapply Exists_impl; [|exact Hp]. intros l' [t ->]. split; [cbn; lia|apply place_holds].
  - right. rewrite (split_lines_id txt [] H10 H13). apply Exists_cons_hd. split; [cbn; lia|apply place_holds].
Qed.

Lemma render_values_keep : forall ops src col tv l ls,
  Forall (fun e : recd => (snd e < col)%Z) l -> lines_show src col tv ls -> lines_show src col tv (render_values ops ls l).
Proof.
  intros ops src col tv l. induction l as [|e r IH]; intros ls Hall H; [exact H|].
  inversion Hall; subst. cbn [render_values]. apply IH; [assumption|].
  apply render_value_keeps; assumption.
Qed.

Lemma sort_desc_isort : forall l, sort_desc l = isort snd (fun a b => Z.leb b a) l.
Proof. reflexivity. Qed.

Definition desc : list recd -> Prop := StronglySorted (fun x y : recd => (snd y < snd x)%Z).

Lemma sort_desc_perm : forall l, Permutation (sort_desc l) l.
Proof. intros l. rewrite sort_desc_isort. apply isort_perm. Qed.

Lemma sort_desc_desc : forall l, NoDup (map snd l) -> desc (sort_desc l).
Proof.
  intros l Hnd. apply (sorted_strict snd (fun a b => Z.leb (snd b) (snd a) = true)).
  - intros a b Hab Hne. apply Z.leb_le in Hab. lia.
  - rewrite sort_desc_isort. apply (isort_sorted snd (fun a b => Z.leb b a)); intros a b.
    + destruct (Z.leb_spec b a); [left; reflexivity|right; apply Z.leb_le; lia].
    + intros c Hab Hbc. apply Z.leb_le in Hab, Hbc. apply Z.leb_le. lia.
  - exact (Permutation_NoDup (Permutation_map snd (Permutation_sym (sort_desc_perm l))) Hnd).
Qed.

(* Values are rendered by strictly decreasing column ([sort_desc_desc]).  The value at [col] is put on some line
   ([render_value_self]).  Every later value has [start < col] and touches a line only left of [col]: by a bar at
   [start], or by its text when that ends before the line's leftmost column ([step_shows]). *)
Lemma render_values_desc : forall ops src v col l ls,
  (1 <= col)%Z ->
  let txt := runes_of_bytes (render ops v) in
  nonl txt -> ~ In 13%N txt ->
  desc l -> In (v, col) l -> lines_ok src ls -> lines_show src col txt (render_values ops ls l).
Proof.
  intros ops src v col l. induction l as [|e r IH]; intros ls Hcol txt H10 H13 Hs Hin Hinv; [destruct Hin|].
  cbn [render_values]. apply StronglySorted_inv in Hs as [Hs Hall].
  assert (Hnext : match r with e2 :: _ => Z.eqb (snd e2) (snd e) | [] => false end = false).
  { destruct r as [|e2 r']; [reflexivity|]. inversion Hall; subst. apply Z.eqb_neq. lia. }
  rewrite Hnext.
  destruct Hin as [He|Hin].
  - subst e. apply render_values_keep; [exact Hall|]. apply render_value_self; assumption.
  - apply IH; try assumption. apply render_value_ok. exact Hinv.
Qed.

Lemma value_shown : forall ops src vs v col,
  NoDup (map snd vs) -> In (v, col) vs -> (1 <= col)%Z ->
  let txt := runes_of_bytes (render ops v) in
  nonl txt -> ~ In 13%N txt ->
  exists before line after,
    report ops src vs = before ++ 10%N :: line ++ after /\
    (after = [] \/ hd 0%N after = 10%N) /\ nonl line /\
    firstn (len txt) (skipn (Z.to_nat col - 1) line) = txt.
Proof.
  intros ops src vs v col Hnd Hin Hcol txt H10 H13.
  rewrite report_joinl.
  destruct (render_values_desc ops src v col (sort_desc vs) [(src, 0%Z); ([], 0%Z)] Hcol H10 H13)
    as [(s0 & rest & Heq & _ & Hnl) Hshows].
  - apply sort_desc_desc. exact Hnd.
  - exact (Permutation_in _ (Permutation_sym (sort_desc_perm vs)) Hin).
  - apply lines_ok_init.
  - fold txt in Hshows. rewrite Heq in *. cbn [tl] in Hshows.
    apply Exists_exists in Hshows. destruct Hshows as [l [Hl [_ Hh]]].
    apply in_split in Hl. destruct Hl as [a [b Hl]]. subst rest.
    destruct (joinl_find a (src, s0) l b) as [before [after [H1 H2]]].
    exists before, (fst l), after. split; [exact H1|]. split; [exact H2|]. split; [|exact (holds_firstn _ _ _ Hh)].
    rewrite Forall_forall in Hnl. apply (Hnl l). apply in_or_app. right. left. reflexivity.
Qed.

Lemma every_value : forall ops src vs v col,
  ~ In 10%N src -> NoDup (map snd vs) -> In (v, col) vs -> (1 <= col)%Z ->
  let txt := runes_of_bytes (render ops v) in
  ~ In 10%N txt -> ~ In 13%N txt -> txt <> [] ->
  exists before line after,
    report ops src vs = before ++ 10%N :: line ++ after /\
    (after = [] \/ hd 0%N after = 10%N) /\ ~ In 10%N line /\
    firstn (len txt) (skipn (Z.to_nat col - 1) line) = txt.
Proof. intros ops src vs v col _ Hnd Hin Hcol txt H10 H13 _. exact (value_shown ops src vs v col Hnd Hin Hcol H10 H13). Qed.

Print Assumptions record_literals.
Print Assumptions record_ident.
Print Assumptions record_last.
Print Assumptions record_if_unselected.
Print Assumptions rec_all_spec.
Print Assumptions transparent.
Print Assumptions first_line.
Print Assumptions every_value.
