(* Proofs for Props/C16.v: optional values are only consumed through get(maybe[a], a).  Two facts carry it: [ty_eqb]
   compares head constructors, and the types of an expression are unique up to [ty_eqb] ([C05Proofs.has_type_unique]). *)
From Coq Require Import List String Bool.
From Yae Require Import Model.Ty Gen.Generated Model.Cst Model.CheckSpec Model.Val Model.Builtins Proofs.ListFacts Proofs.C05Proofs.
Import ListNotations.
Local Open Scope string_scope.

Fixpoint mentions_maybe (t : ty) : bool :=
  match t with
  | TMaybe _ => true
  | TList e => mentions_maybe e
  | TMap k v => mentions_maybe k || mentions_maybe v
  | TTuple l => existsb mentions_maybe l
  | TObj fs => existsb (fun f => mentions_maybe (snd f)) fs
  | TFun _ ps r => existsb mentions_maybe ps || mentions_maybe r
  | _ => false
  end.

Lemma sole_eliminator :
  forallb (fun row => let '(n, ps, r, lz) := row in
                      negb (existsb mentions_maybe ps) || (String.eqb n "get" && String.eqb (shapes ps) "yv"))
          builtin_sigs = true.
Proof. vm_compute; reflexivity. Qed.

(* [subst_ty] keeps the head constructor of a non-variable *)
Lemma eqb_maybe_head : forall s p U,
  ty_eqb (subst_ty s p) (TMaybe U) = true -> (exists n, p = TVar n) \/ (exists q, p = TMaybe q).
Proof.
  intros s p U E. destruct p; simpl in E; try discriminate E.
  - left. eexists; reflexivity.
  - right. eexists; reflexivity.
Qed.

Lemma no_coercion : forall s params ret args rt i U p,
  instantiates s params ret args rt ->
  nth_error args i = Some (TMaybe U) -> nth_error params i = Some p ->
  (exists n, p = TVar n) \/ (exists q, p = TMaybe q).
Proof.
  (* all that is used of [instantiates]: [tys_eqb] is [forallb2 ty_eqb] *)
  intros s params ret args rt i U p (_ & _ & _ & HE & _) Ha Hp. apply (eqb_maybe_head s p U).
  apply (forallb2_nth ty_eqb (map (subst_ty s) params) args i); [exact HE| |exact Ha].
  rewrite nth_error_map, Hp. reflexivity.
Qed.

Lemma maybe_only fe G fresh o U T' :
  fenv_ok fe = true -> tenv_ok G = true -> fresh_ok fe fresh ->
  has_type fe G o (TMaybe U) -> has_type fe G o T' -> exists U', T' = TMaybe U'.
Proof.
  intros Hfe HG Hfr Ho H'. pose proof (has_type_unique fe G fresh o _ _ Hfe HG Hfr Ho H') as E.
  destruct T'; try discriminate E. eexists; reflexivity.
Qed.

Lemma has_type_member_inv fe G p col o fname fpos T :
  has_type fe G (EMember p col o fname fpos) T -> exists fs, has_type fe G o (TObj fs).
Proof. inversion 1; subst. eauto. Qed.

Lemma has_type_sub_inv fe G p col o i T :
  has_type fe G (ESub p col o i) T -> (exists el, has_type fe G o (TList el)) \/ (exists kt vt, has_type fe G o (TMap kt vt)).
Proof. inversion 1; subst; eauto. Qed.

Lemma member_rejected : forall fe G fresh p col o fname fpos U T,
  fenv_ok fe = true -> tenv_ok G = true -> fresh_ok fe fresh ->
  has_type fe G o (TMaybe U) -> ~ has_type fe G (EMember p col o fname fpos) T.
Proof.
  intros fe G fresh p col o fname fpos U T Hfe HG Hfr Ho Hm.
  destruct (has_type_member_inv _ _ _ _ _ _ _ _ Hm) as [fs Hobj].
  destruct (maybe_only fe G fresh o U _ Hfe HG Hfr Ho Hobj) as [U' E]. discriminate E.
Qed.

Lemma subscript_rejected : forall fe G fresh p col o i U T,
  fenv_ok fe = true -> tenv_ok G = true -> fresh_ok fe fresh ->
  has_type fe G o (TMaybe U) -> ~ has_type fe G (ESub p col o i) T.
Proof.
  intros fe G fresh p col o i U T Hfe HG Hfr Ho Hs.
  destruct (has_type_sub_inv _ _ _ _ _ _ _ Hs) as [[el Hv]|[kt [vt Hv]]];
    destruct (maybe_only fe G fresh o U _ Hfe HG Hfr Ho Hv) as [U' E]; discriminate E.
Qed.

Lemma get_maybe : forall ops orc t v d,
  bsem ops orc BGetMaybe [VMaybe t (Some v); d] = ret v /\ bsem ops orc BGetMaybe [VMaybe t None; d] = ret d.
Proof. intros ops orc t v d. split; reflexivity. Qed.

Print Assumptions sole_eliminator.
Print Assumptions no_coercion.
Print Assumptions member_rejected.
Print Assumptions subscript_rejected.
Print Assumptions get_maybe.
