(* Proofs for Props/C02.v (progress).  [progress] is the fault half of the invariant [C01Proofs.eval_invariant];
   [terminates] and [total_builtins] are about the evaluator and the library alone, through the compositional predicate
   [avoid] (which failures / faults a computation can never end in); [mod_fails_iff] is by computation. *)
From Coq Require Import List String Ascii Bool Arith NArith ZArith Lia.
From Yae Require Import Base.Sexp Model.Ty Gen.Generated Model.Unify Model.TySpec Model.Num Model.Lexer Model.Literal Model.Cst
  Model.Check Model.CheckSpec Model.Val Model.Render Model.ValSpec Model.Builtins Model.Eval Model.EvalSpec
  Proofs.ListFacts Proofs.ValFacts Proofs.EvalFacts Proofs.AexprInd Proofs.C01Proofs.
Import ListNotations.
Local Open Scope nat_scope.
Local Open Scope string_scope.

Lemma progress ops orc : forall fe G rho fuel fresh e a T f t k,
  (fe = builtin_fenv \/ fe = fenv_std) ->
  tenv_ok G = true -> env_ok G rho -> fresh_ok fe fresh ->
  check fe G fuel fresh e = COk (a, T) ->
  eval ops orc fe rho f a = (t, OFault k) -> k = XFuel.
Proof.
  intros fe G rho fuel fresh e a T f t k Hfe HG Hrho Hfr HC HE.
  pose proof (eval_invariant ops orc fe G rho fuel fresh e a T f Hfe HG Hrho Hfr HC) as H.
  unfold okM in H. rewrite HE in H. exact H.
Qed.

Definition nofuel {X} (m : M X) : Prop := avoid (fun _ => False) (fun k => k = XFuel) m.

Section Terminates.
  Variables (ops : numops) (orc : oracles) (fe : fenv) (rho : venv).
  Notation ev := (eval ops orc fe rho).

  (* By induction on the expression: once every operand is past its own fuel bound, one more unit of fuel runs the node
     itself ([ev_S] with the unfolding equation of that node), and nothing a node does beside evaluating its operands
     ends in XFuel (Section AvoidCall). *)
  Lemma fuel_enough : forall a, eventually (fun f => nofuel (ev f a)).
  Proof.
    induction a as [v|t n|t|b|t es IHes|t kvs IHkvs|t fs IHfs|c n|c key idx ft callee args IHcallee IHargs
                   |c vt v i IHv IHi|c ot idx o n IHo] using aexpr_ind'.
    1-4: apply ev_pos; intros f; apply av_ret.
    - refine (ev_S _ _ _ (ev_Forall _ _ IHes)). intros f Hf. rewrite eval_list. destruct es; [apply av_ret|].
      apply av_bind; [apply av_mmapM; exact Hf|intros; apply av_ret].
    - assert (Forall (fun kv => eventually (fun f => nofuel (ev f (fst kv)) /\ nofuel (ev f (snd kv)))) kvs) as IH'.
      { eapply Forall_impl; [|exact IHkvs]. intros kv [H1 H2]. exact (ev_and _ _ H1 H2). }
      refine (ev_S _ _ _ (ev_Forall _ _ IH')). intros f Hf. rewrite eval_map. destruct kvs; [apply av_ret|].
      apply av_bind; [apply av_map_go; [av_side ..|exact Hf]|intros; apply av_ret].
    - refine (ev_S _ _ _ (ev_Forall (fun nf f => nofuel (ev f (snd nf))) _ IHfs)). intros f Hf. rewrite eval_obj.
      destruct fs; [apply av_ret|]. apply av_bind; [apply av_mmapM; exact Hf|intros; apply av_ret].
    - apply ev_pos. intros f. rewrite eval_ident. destruct (assoc n rho); [apply av_ret|apply av_fault; discriminate].
    - refine (ev_S _ _ _ (ev_and _ _ IHcallee (ev_Forall _ _ IHargs))). intros f [Hc Hargs]. rewrite eval_call.
      destruct (String.eqb key "").
      + apply av_bind; [exact Hc|]. intros fv.
        destruct fv as [| | | | | | | |ft' name lz]; try (apply av_fault; discriminate).
        destruct ft'; try (apply av_fault; discriminate). apply av_do_call; [av_side ..|exact Hargs].
      + destruct (lookup_fn fe key idx); [apply av_do_call; [av_side ..|exact Hargs]|apply av_fault; discriminate].
    - refine (ev_S _ _ _ (ev_and _ _ IHv IHi)). intros f [Hv Hi]. rewrite eval_sub.
      apply av_bind; [exact Hv|]. intros x. destruct x; try (apply av_fault; discriminate).
      + apply av_bind; [exact Hi|]. intros iv. apply av_list_load; av_side.
      + apply av_bind; [exact Hi|]. intros kv. apply av_map_load; av_side.
    - refine (ev_S _ _ _ IHo). intros f Ho. rewrite eval_member.
      apply av_bind; [exact Ho|]. intros x. apply av_member; av_side.
  Qed.
End Terminates.

Lemma terminates ops orc : forall fe rho a,
  exists f0, forall f, (f0 <= f)%nat -> forall t, eval ops orc fe rho f a <> (t, OFault XFuel).
Proof.
  intros fe rho a. destruct (fuel_enough ops orc fe rho a) as [n Hn]. exists n. intros f Hf t E.
  apply (avoid_fault _ _ _ t XFuel (Hn f Hf) E). reflexivity.
Qed.

Lemma bsem_total ops orc b args : b <> BMod -> b <> BMatch -> avoid (fun _ => True) (fun _ => False) (bsem ops orc b args).
Proof. intros Hm Hr. apply av_bsem_cond; tauto. Qed.

Lemma total_builtins ops orc : forall b args,
  In b [BGetList; BGetMap; BGetMaybe; BIsset; BMaxList; BMinList; BLenList; BLenMap; BLenStr; BString; BUnion; BIntersect; BDiff] ->
  forall k t, bsem ops orc b args <> (t, OFail k).
Proof.
  intros b args Hin k t E.
  assert (b <> BMod /\ b <> BMatch) as [Hm Hr] by (split; intros ->; cbn in Hin; intuition discriminate).
  exact (avoid_fail _ _ _ t k (bsem_total ops orc b args Hm Hr) E I).
Qed.

Lemma mod_fails_iff ops orc : forall x y,
  (exists t, bsem ops orc BMod [VNum x; VNum y] = (t, OFail FModZero)) <-> to_i64 ops y = 0%Z.
Proof.
  intros x y. simpl. split.
  - intros [t H]. destruct (Z.eqb_spec (to_i64 ops y) 0) as [E|E]; [exact E|discriminate H].
  - intros E. rewrite E. simpl. exists []. reflexivity.
Qed.

Print Assumptions progress.
Print Assumptions terminates.
Print Assumptions total_builtins.
Print Assumptions mod_fails_iff.
