(* C10 proofs: desugaring produces core forms, has the documented shapes, commutes with position erasure,
   and is idempotent on trees without a member node in callee position (and not on all trees). *)
From Coq Require Import List String Bool NArith ZArith.
From Yae Require Import Base.Sexp Model.Lexer Model.Cst Model.Desugar Model.DesugarSpec Proofs.ExprInd Proofs.ListFacts.
Import ListNotations.

Lemma mapM_length {X Y} (f : X -> option Y) l : forall l', mapM f l = Some l' -> List.length l' = List.length l.
Proof. intros l' H. symmetry. exact (Forall2_len _ _ _ (mapM_Forall2 _ _ _ H)). Qed.

Lemma mapM_id {X} (l : list X) : mapM (fun x => Some x) l = Some l.
Proof. apply mapM_fixes, Forall_forall. reflexivity. Qed.

Lemma Forall_forallb2_mp {X} (q q' : X -> bool) (P : X -> Prop) l :
  Forall (fun x => q x = true -> q' x = true -> P x) l -> forallb q l = true -> forallb q' l = true -> Forall P l.
Proof. intros H Hq Hq'. exact (Forall_forallb_mp _ _ _ (Forall_forallb_mp _ _ _ H Hq) Hq'). Qed.

Definition desugar_kv (kv : expr * expr) : option (expr * expr) :=
  do k <- desugar (fst kv); do v <- desugar (snd kv); Some (k, v).
Definition desugar_fld (f : list N * expr) : option (list N * expr) :=
  do v <- desugar (snd f); Some (fst f, v).

Lemma desugar_list p es : desugar (EList p es) = option_map (EList p) (mapM desugar es).
Proof. reflexivity. Qed.
Lemma desugar_map p kvs : desugar (EMap p kvs) = option_map (EMap p) (mapM desugar_kv kvs).
Proof. reflexivity. Qed.
Lemma desugar_obj p fs : desugar (EObj p fs) = option_map (EObj p) (mapM desugar_fld fs).
Proof. reflexivity. Qed.
Lemma desugar_unary p n np x pre :
  desugar (EUnary p n np x pre) = do x' <- desugar x; Some (ECall p (p_col np) (EIdent np n) [x']).
Proof. reflexivity. Qed.
Lemma desugar_binary p n np fx l r :
  desugar (EBinary p n np fx l r) =
  do l' <- desugar l; do r' <- desugar r; Some (ECall p (p_col np) (EIdent np n) [l'; r']).
Proof. reflexivity. Qed.
Lemma desugar_ternary p n np l m r :
  desugar (ETernary p n np l m r) =
  if list_eqb n [63%N] then
    do l' <- desugar l; do m' <- desugar m; do r' <- desugar r;
    Some (ECall p (p_col np) (EIdent np IF_NAME) [l'; m'; r'])
  else None.
Proof. reflexivity. Qed.
Lemma desugar_sub p c v i :
  desugar (ESub p c v i) = do v' <- desugar v; do i' <- desugar i; Some (ESub p c v' i').
Proof. reflexivity. Qed.
Lemma desugar_member p c o n np :
  desugar (EMember p c o n np) = do o' <- desugar o; Some (EMember p c o' n np).
Proof. reflexivity. Qed.

Definition is_member (e : expr) : bool := match e with EMember _ _ _ _ _ => true | _ => false end.

Lemma is_member_inv e : is_member e = true -> exists pm cm o f fp, e = EMember pm cm o f fp.
Proof. destruct e as [| | | | | | | | | |pm cm o f fp| | | |]; intros H; try discriminate H. exists pm, cm, o, f, fp. reflexivity. Qed.

Lemma is_member_erase e : is_member (erase e) = is_member e.
Proof. destruct e; reflexivity. Qed.

Lemma desugar_call_member p col pm cm o f fp args :
  desugar (ECall p col (EMember pm cm o f fp) args) =
  do o' <- desugar o; do args' <- mapM desugar args; Some (ECall p col (EIdent fp f) (o' :: args')).
Proof. reflexivity. Qed.

Lemma desugar_call_other p col c args : is_member c = false ->
  desugar (ECall p col c args) = do args' <- mapM desugar args; do c' <- desugar c; Some (ECall p col c' args').
Proof. destruct c; intros H; try reflexivity; discriminate H. Qed.

Lemma shape_binary : forall p n np fx l r l' r',
  desugar l = Some l' -> desugar r = Some r' ->
  desugar (EBinary p n np fx l r) = Some (ECall p (p_col np) (EIdent np n) [l'; r']).
Proof. intros p n np fx l r l' r' Hl Hr. rewrite desugar_binary, Hl, Hr. reflexivity. Qed.

Lemma shape_unary : forall p n np x pre x',
  desugar x = Some x' -> desugar (EUnary p n np x pre) = Some (ECall p (p_col np) (EIdent np n) [x']).
Proof. intros p n np x pre x' Hx. rewrite desugar_unary, Hx. reflexivity. Qed.

Lemma shape_ternary : forall p np c a b c' a' b',
  desugar c = Some c' -> desugar a = Some a' -> desugar b = Some b' ->
  desugar (ETernary p [63%N] np c a b) = Some (ECall p (p_col np) (EIdent np IF_NAME) [c'; a'; b']).
Proof. intros p np c a b c' a' b' Hc Ha Hb. rewrite desugar_ternary, Hc, Ha, Hb. reflexivity. Qed.

Lemma shape_method : forall p col pm cm o f fp args o' args',
  desugar o = Some o' -> mapM desugar args = Some args' ->
  desugar (ECall p col (EMember pm cm o f fp) args) = Some (ECall p col (EIdent fp f) (o' :: args')).
Proof. intros p col pm cm o f fp args o' args' Ho Ha. rewrite desugar_call_member, Ho, Ha. reflexivity. Qed.

Lemma shape_group : forall p e, desugar (EGroup p e) = desugar e.
Proof. intros p e. reflexivity. Qed.

Definition is_atom (e : expr) : bool :=
  match e with EStr _ _ | ENum _ _ | EBool _ _ | ETime _ _ | EIdent _ _ => true | _ => false end.

(* as in [expr_ind'], the hypothesis about the callee of a method call speaks of the member node, not of the receiver
   inside it *)
Section DesugarInd.
  Variable P : expr -> expr -> Prop.
  Hypothesis Hatom : forall e, is_atom e = true -> P e e.
  Hypothesis Hlist : forall p es es', Forall2 P es es' -> P (EList p es) (EList p es').
  Hypothesis Hmap : forall p kvs kvs',
    Forall2 (fun a b => P (fst a) (fst b) /\ P (snd a) (snd b)) kvs kvs' -> P (EMap p kvs) (EMap p kvs').
  Hypothesis Hobj : forall p fs fs',
    Forall2 (fun a b => fst b = fst a /\ P (snd a) (snd b)) fs fs' -> P (EObj p fs) (EObj p fs').
  Hypothesis Hunary : forall p n np x pre x',
    P x x' -> P (EUnary p n np x pre) (ECall p (p_col np) (EIdent np n) [x']).
  Hypothesis Hbinary : forall p n np fx l r l' r',
    P l l' -> P r r' -> P (EBinary p n np fx l r) (ECall p (p_col np) (EIdent np n) [l'; r']).
  Hypothesis Hternary : forall p np l m r l' m' r',
    P l l' -> P m m' -> P r r' ->
    P (ETernary p [63%N] np l m r) (ECall p (p_col np) (EIdent np IF_NAME) [l'; m'; r']).
  Hypothesis Hmethod : forall p col pm cm o f fp args o' args',
    P (EMember pm cm o f fp) (EMember pm cm o' f fp) -> Forall2 P args args' ->
    P (ECall p col (EMember pm cm o f fp) args) (ECall p col (EIdent fp f) (o' :: args')).
  Hypothesis Hcall : forall p col c args c' args',
    is_member c = false -> P c c' -> Forall2 P args args' -> P (ECall p col c args) (ECall p col c' args').
  Hypothesis Hsub : forall p c v i v' i', P v v' -> P i i' -> P (ESub p c v i) (ESub p c v' i').
  Hypothesis Hmember : forall p c o n np o', P o o' -> P (EMember p c o n np) (EMember p c o' n np).
  Hypothesis Hgroup : forall p x d, P x d -> P (EGroup p x) d.

  Lemma desugar_ind : forall e d, desugar e = Some d -> P e d.
  Proof.
    induction e as [p t|p t|p t|p b|p es IH|p kvs IH|p fs IH|p n|p c f args IHf IHargs|p c v i IHv IHi
                   |p c o n np IHo|p n np x pre IHx|p n np fx l r IHl IHr|p n np l m r IHl IHm IHr|p x IHx]
      using expr_ind'; intros d H.
    1-4, 8: injection H as <-; apply Hatom; reflexivity.
    - rewrite desugar_list in H. apply option_map_Some in H as (es' & Ees & ->).
      apply Hlist. exact (mapM_rel _ _ _ IH _ Ees).
    - rewrite desugar_map in H. apply option_map_Some in H as (kvs' & Ekvs & ->).
      apply Hmap. refine (mapM_rel _ _ _ _ _ Ekvs).
      refine (Forall_impl _ _ IH). intros [k v] [IHk IHv] y Hy.
      apply bind_some in Hy as (k' & Ek & Hy). apply bind_some in Hy as (v' & Ev & Hy).
      injection Hy as <-. split; [exact (IHk _ Ek)|exact (IHv _ Ev)].
    - rewrite desugar_obj in H. apply option_map_Some in H as (fs' & Efs & ->).
      apply Hobj. refine (mapM_rel _ _ _ _ _ Efs).
      refine (Forall_impl _ _ IH). intros [k v] IHv y Hy.
      apply bind_some in Hy as (v' & Ev & Hy). injection Hy as <-. split; [reflexivity|exact (IHv _ Ev)].
    - destruct (is_member f) eqn:Em.
      + apply is_member_inv in Em as (pm & cm & o & fn & fp & ->).
        rewrite desugar_call_member in H.
        apply bind_some in H as (o' & Eo & H). apply bind_some in H as (args' & Ea & H). injection H as <-.
        apply Hmethod; [|exact (mapM_rel _ _ _ IHargs _ Ea)].
        apply IHf. rewrite desugar_member, Eo. reflexivity.
      + rewrite (desugar_call_other _ _ _ _ Em) in H.
        apply bind_some in H as (args' & Ea & H). apply bind_some in H as (c' & Ec & H). injection H as <-.
        exact (Hcall _ _ _ _ _ _ Em (IHf _ Ec) (mapM_rel _ _ _ IHargs _ Ea)).
    - rewrite desugar_sub in H.
      apply bind_some in H as (v' & Ev & H). apply bind_some in H as (i' & Ei & H). injection H as <-.
      exact (Hsub _ _ _ _ _ _ (IHv _ Ev) (IHi _ Ei)).
    - rewrite desugar_member in H. apply bind_some in H as (o' & Eo & H). injection H as <-.
      exact (Hmember _ _ _ _ _ _ (IHo _ Eo)).
    - rewrite desugar_unary in H. apply bind_some in H as (x' & Ex & H). injection H as <-.
      exact (Hunary _ _ _ _ _ _ (IHx _ Ex)).
    - rewrite desugar_binary in H.
      apply bind_some in H as (l' & El & H). apply bind_some in H as (r' & Er & H). injection H as <-.
      exact (Hbinary _ _ _ _ _ _ _ _ (IHl _ El) (IHr _ Er)).
    - rewrite desugar_ternary in H. destruct (list_eqb n [63%N]) eqn:En; [|discriminate H].
      apply list_eqb_eq in En. subst n.
      apply bind_some in H as (l' & El & H). apply bind_some in H as (m' & Em & H).
      apply bind_some in H as (r' & Er & H). injection H as <-.
      exact (Hternary _ _ _ _ _ _ _ _ (IHl _ El) (IHm _ Em) (IHr _ Er)).
    - exact (Hgroup _ _ _ (IHx _ H)).
  Qed.
End DesugarInd.

Lemma desugar_core : forall e d, desugar e = Some d -> core_only d = true.
Proof.
  apply (desugar_ind (fun _ d => core_only d = true)); cbn [core_only forallb].
  - intros e He. destruct e; try discriminate He; reflexivity.
  - intros p es es'. apply Forall2_forallb.
  - intros p kvs kvs' H. apply (Forall2_forallb _ kvs). revert H. apply Forall2_imp. intros a b [-> ->]. reflexivity.
  - intros p fs fs' H. apply (Forall2_forallb _ fs). revert H. apply Forall2_imp. intros a b [_ H]. exact H.
  - intros p n np x pre x' ->. reflexivity.
  - intros p n np fx l r l' r' -> ->. reflexivity.
  - intros p np l m r l' m' r' -> -> ->. reflexivity.
  - intros p col pm cm o f fp args o' args' -> Ha. exact (Forall2_forallb _ _ _ Ha).
  - intros p col c args c' args' _ -> Ha. exact (Forall2_forallb _ _ _ Ha).
  - intros p c v i v' i' -> ->. reflexivity.
  - intros p c o n np o' H. exact H.
  - intros p x d H. exact H.
Qed.

Lemma erase_commutes : forall e d, desugar e = Some d -> desugar (erase e) = Some (erase d).
Proof.
  apply (desugar_ind (fun e d => desugar (erase e) = Some (erase d))); cbn [erase map].
  - intros e He. destruct e; try discriminate He; reflexivity.
  - intros p es es' H. rewrite desugar_list, (Forall2_mapM_map _ _ _ _ _ H). reflexivity.
  - intros p kvs kvs' H. rewrite desugar_map.
    rewrite (Forall2_mapM_map _ (fun kv => (erase (fst kv), erase (snd kv)))
                              (fun kv => (erase (fst kv), erase (snd kv))) kvs kvs'); [reflexivity|].
    revert H. apply Forall2_imp. intros a b [Hk Hv]. unfold desugar_kv. cbn [fst snd]. rewrite Hk, Hv. reflexivity.
  - intros p fs fs' H. rewrite desugar_obj.
    rewrite (Forall2_mapM_map _ (fun f => (fst f, erase (snd f))) (fun f => (fst f, erase (snd f))) fs fs');
      [reflexivity|].
    revert H. apply Forall2_imp. intros a b [Hk Hv]. unfold desugar_fld. cbn [fst snd]. rewrite Hk, Hv. reflexivity.
  - intros p n np x pre x' Hx. rewrite desugar_unary, Hx. reflexivity.
  - intros p n np fx l r l' r' Hl Hr. rewrite desugar_binary, Hl, Hr. reflexivity.
  - intros p np l m r l' m' r' Hl Hm Hr. rewrite desugar_ternary, Hl, Hm, Hr. reflexivity.
  - intros p col pm cm o f fp args o' args' Ho Ha.
    rewrite desugar_member in Ho. apply bind_some in Ho as (o2 & Eo2 & Ho). injection Ho as ->.
    rewrite desugar_call_member, Eo2, (Forall2_mapM_map _ _ _ _ _ Ha). reflexivity.
  - intros p col c args c' args' Em Hc Ha.
    rewrite desugar_call_other by (rewrite is_member_erase; exact Em).
    rewrite (Forall2_mapM_map _ _ _ _ _ Ha), Hc. reflexivity.
  - intros p c v i v' i' Hv Hi. rewrite desugar_sub, Hv, Hi. reflexivity.
  - intros p c o n np o' Ho. rewrite desugar_member, Ho. reflexivity.
  - intros p x d H. exact H.
Qed.

Lemma idempotent_partial : forall d, core_only d = true -> no_member_callee d = true -> desugar d = Some d.
Proof.
  induction d as [p t|p t|p t|p b|p es IH|p kvs IH|p fs IH|p n|p c f args IHf IHargs|p c v i IHv IHi
                 |p c o n np IHo|p n np x pre IHx|p n np fx l r IHl IHr|p n np l m r IHl IHm IHr|p x IHx]
    using expr_ind'; intros Hc Hn; try reflexivity; try discriminate Hc; cbn [core_only no_member_callee] in Hc, Hn.
  - rewrite desugar_list, mapM_fixes; [reflexivity|].
    exact (Forall_forallb2_mp _ _ _ _ IH Hc Hn).
  - rewrite desugar_map, mapM_fixes; [reflexivity|].
    refine (Forall_forallb2_mp _ _ _ _ (Forall_impl _ _ IH) Hc Hn).
    intros [k v] [IHk IHv] H1 H2. cbn [fst snd] in *.
    apply andb_true_iff in H1 as [H1k H1v]. apply andb_true_iff in H2 as [H2k H2v].
    unfold desugar_kv. cbn [fst snd]. rewrite (IHk H1k H2k), (IHv H1v H2v). reflexivity.
  - rewrite desugar_obj, mapM_fixes; [reflexivity|].
    refine (Forall_forallb2_mp _ _ _ _ (Forall_impl _ _ IH) Hc Hn).
    intros [k v] IHv H1 H2. cbn [fst snd] in *.
    unfold desugar_fld. cbn [fst snd]. rewrite (IHv H1 H2). reflexivity.
  - apply andb_true_iff in Hc as [Hcf Hca]. apply andb_true_iff in Hn as [Hnf Hna].
    assert (Hf : is_member f = false /\ no_member_callee f = true) by (destruct f; try discriminate Hnf; auto).
    destruct Hf as [Em Hnf'].
    rewrite (desugar_call_other _ _ _ _ Em), mapM_fixes, (IHf Hcf Hnf'); [reflexivity|].
    exact (Forall_forallb2_mp _ _ _ _ IHargs Hca Hna).
  - apply andb_true_iff in Hc as [Hcv Hci]. apply andb_true_iff in Hn as [Hnv Hni].
    rewrite desugar_sub, (IHv Hcv Hnv), (IHi Hci Hni). reflexivity.
  - rewrite desugar_member, (IHo Hc Hn). reflexivity.
Qed.

Lemma idempotent_refuted : exists e d d2,
  desugar e = Some d /\ desugar d = Some d2 /\ d2 <> d.
Proof.
  (* (o.f)(1): the parentheses keep the first pass from seeing a method call, and the first pass removes them *)
  pose (p := p0). pose (o := EIdent p (runes "o")). pose (f := runes "f"). pose (one := ENum p (runes "1")).
  exists (ECall p 0 (EGroup p (EMember p 0 o f p)) [one]).
  exists (ECall p 0 (EMember p 0 o f p) [one]).
  exists (ECall p 0 (EIdent p f) [o; one]).
  split; [reflexivity|]. split; [reflexivity|]. intros H. discriminate H.
Qed.

Print Assumptions desugar_core.
Print Assumptions shape_binary.
Print Assumptions shape_unary.
Print Assumptions shape_ternary.
Print Assumptions shape_method.
Print Assumptions shape_group.
Print Assumptions erase_commutes.
Print Assumptions idempotent_partial.
Print Assumptions idempotent_refuted.
