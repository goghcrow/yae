(* Proofs for Props/C01.v (preservation) and the invariant behind Props/C02.v (progress), by induction over the
   successful runs of the checker ([C05Proofs.check_ind]).  The call case needs that every function of the library
   respects its instantiated signature ([sig_spec]): the host functions one by one, the built-ins through a finite check
   that ties each row of the regenerated table to the shape its semantics assumes ([row_ok], [bsem_good]); and that the
   instantiated parameter types are well formed ([wf_subst_ty_eqb]), so that [ty_eqb] with them can be turned round. *)
From Coq Require Import List String Ascii Bool Arith NArith ZArith Lia.
From Yae Require Import Base.Sexp Model.Ty Gen.Generated Model.Unify Model.TySpec Model.Num Model.Lexer Model.Literal Model.Cst
  Model.Check Model.CheckSpec Model.Val Model.Render Model.ValSpec Model.Builtins Model.Eval Model.EvalSpec
  Proofs.ListFacts Proofs.ValFacts Proofs.EvalFacts Proofs.TyInd Proofs.C17Proofs Proofs.C05Proofs.
From Yae Require Proofs.C04Proofs.
Import ListNotations.
Local Open Scope nat_scope.
Local Open Scope string_scope.

Definition okO {X} (P : X -> Prop) (o : outcome X) : Prop :=
  match o with OVal x => P x | OFail _ => True | OFault k => k = XFuel end.
Definition okM {X} (P : X -> Prop) (m : M X) : Prop := okO P (snd m).

Lemma okM_ret {X} (P : X -> Prop) x : P x -> okM P (ret x).
Proof. intros H. exact H. Qed.

Lemma okM_fail {X} (P : X -> Prop) k : okM P (fail k).
Proof. exact I. Qed.

Lemma okM_bind {X Y} (Q : X -> Prop) (P : Y -> Prop) (m : M X) (k : X -> M Y) :
  okM Q m -> (forall x, Q x -> okM P (k x)) -> okM P (mbind m k).
Proof.
  destruct m as [t [x|fk|fk]]; unfold okM; simpl; intros H1 H2; try assumption.
  specialize (H2 x H1). destruct (k x) as [t' o']. exact H2.
Qed.

Lemma okM_weaken {X} (P Q : X -> Prop) (m : M X) : okM P m -> (forall x, P x -> Q x) -> okM Q m.
Proof. destruct m as [t [x|fk|fk]]; unfold okM; simpl; auto. Qed.

Lemma okM_mmapM {X Y} (R : X -> Y -> Prop) (g : X -> M Y) : forall xs,
  Forall (fun x => okM (R x) (g x)) xs -> okM (fun ys => Forall2 R xs ys) (mmapM g xs).
Proof.
  induction xs as [|x r IH]; intros H; simpl.
  - apply okM_ret. constructor.
  - inversion H as [|? ? Hx Hr]; subst.
    eapply okM_bind; [exact Hx|]. intros y Hy.
    eapply okM_bind; [exact (IH Hr)|]. intros ys Hys. apply okM_ret. constructor; assumption.
Qed.

Lemma okM_mmapM2 {X Y Z} (R : Z -> Y -> Prop) (g : X -> M Y) : forall xs zs,
  Forall2 (fun x z => okM (R z) (g x)) xs zs -> okM (fun ys => Forall2 (fun y z => R z y) ys zs) (mmapM g xs).
Proof.
  induction 1 as [|x z xs zs Hx Hr IH]; simpl.
  - apply okM_ret. constructor.
  - eapply okM_bind; [exact Hx|]. intros y Hy.
    eapply okM_bind; [exact IH|]. intros ys Hys. apply okM_ret. constructor; assumption.
Qed.

Lemma okM_mmapM_all {X Y} (P : Y -> Prop) (g : X -> M Y) xs :
  Forall (fun x => okM P (g x)) xs -> okM (Forall P) (mmapM g xs).
Proof.
  intros H. eapply okM_weaken; [exact (okM_mmapM (fun _ => P) g xs H)|].
  intros ys HF. eapply Forall2_Forall_r; [exact HF|]. auto.
Qed.

Lemma okM_emit {X} (P : X -> Prop) e (k : unit -> M X) : okM P (k tt) -> okM P (mbind (emit e) k).
Proof. intros H. unfold okM, emit. simpl. destruct (k tt) as [t o]. exact H. Qed.

(* what C01 concludes of a result and [env_ok] asks of every variable *)
Definition vgood (T : ty) (v : val) : Prop := has_vtype v T = true /\ fun_free v = true.

Lemma vgood_good T v : vgood T v <-> good v /\ ty_eqb (val_type v) T = true.
Proof. unfold vgood, has_vtype, good. rewrite andb_true_iff. split; [intros [[H1 H2] H3]|intros [[H1 H3] H2]]; auto. Qed.

Lemma vgood_eqb T T' v : ty_eqb T T' = true -> vgood T v -> vgood T' v.
Proof.
  intros E [H1 H2]. split; [|exact H2]. unfold has_vtype in *. apply andb_true_iff in H1. destruct H1 as [Hok Heq].
  rewrite Hok. simpl. eapply eqb_trans; eauto.
Qed.

Lemma vgood_num b : vgood TNum (VNum b). Proof. split; reflexivity. Qed.
Lemma vgood_bool b : vgood TBool (VBool b). Proof. split; reflexivity. Qed.
Lemma vgood_str b : vgood TStr (VStr b). Proof. split; reflexivity. Qed.
Lemma vgood_time a b : vgood TTime (VTime a b). Proof. split; reflexivity. Qed.

Lemma eqb_prim_eq a b : is_primitive b = true -> ty_eqb a b = true -> a = b.
Proof. intros H1 H2. destruct b; try discriminate H1; destruct a; try discriminate H2; reflexivity. Qed.
Lemma eqb_bot_eq a : ty_eqb a TBot = true -> a = TBot.
Proof. destruct a; simpl; intros H; try discriminate H; reflexivity. Qed.

Lemma vgood_head T v : vgood T v ->
  match T, v with
  | TNum, VNum _ | TBool, VBool _ | TStr, VStr _ | TTime, VTime _ _
  | TList _, VList _ _ | TMap _ _, VMap _ _ | TObj _, VObj _ _ | TMaybe _, VMaybe _ _ => True
  | _, _ => False
  end.
Proof.
  intros [H F]. unfold has_vtype in H. apply andb_true_iff in H. destruct H as [Hok Heq].
  destruct v; simpl in Heq, Hok, F; try discriminate F;
    try (destruct t; simpl in Hok; rewrite ?andb_false_r in Hok; try discriminate Hok);
    destruct T; try discriminate Heq; exact I.
Qed.

Lemma vgood_num_inv v : vgood TNum v -> exists b, v = VNum b.
Proof. intros H. pose proof (vgood_head _ _ H). destruct v; try contradiction. eauto. Qed.
Lemma vgood_bool_inv v : vgood TBool v -> exists b, v = VBool b.
Proof. intros H. pose proof (vgood_head _ _ H). destruct v; try contradiction. eauto. Qed.
Lemma vgood_str_inv v : vgood TStr v -> exists b, v = VStr b.
Proof. intros H. pose proof (vgood_head _ _ H). destruct v; try contradiction. eauto. Qed.
Lemma vgood_time_inv v : vgood TTime v -> exists a b, v = VTime a b.
Proof. intros H. pose proof (vgood_head _ _ H). destruct v; try contradiction. eauto. Qed.

(* [K] is the static key type, [k1] the one the map value carries *)
Lemma vgood_key ops k1 K v : keyable k1 = true -> slot_free k1 = true -> ty_eqb k1 K = true -> vgood K v ->
  exists kk, key_of ops v = ret kk.
Proof.
  intros Hk Hs E H. pose proof (vgood_head _ _ H).
  destruct k1; try discriminate Hk; try discriminate Hs; destruct K; try discriminate E; destruct v; try contradiction;
    eexists; reflexivity.
Qed.

Lemma vgood_prim_key ops v T : is_primitive T = true -> vgood T v -> exists k, key_of ops v = ret k.
Proof.
  intros Hp H.
  assert (keyable T = true /\ slot_free T = true /\ ty_eqb T T = true) as (K & S & E) by (destruct T; try discriminate Hp; auto).
  exact (vgood_key ops T T v K S E H).
Qed.

Lemma vgood_elem e e' x : good x /\ ty_eqb (val_type x) e' = true -> ty_eqb e' e = true -> vgood e x.
Proof. intros [G E'] E. apply vgood_good. split; [exact G|eapply eqb_trans; eauto]. Qed.

Lemma vgood_list E l : vgood (TList E) l -> exists t vs, l = VList t vs /\ forall x, In x vs -> vgood E x.
Proof.
  intros H. pose proof (vgood_head _ _ H) as S. destruct l; try contradiction S. apply vgood_good in H.
  destruct H as [G Et]. destruct (good_list_inv _ _ G) as (e & -> & _ & Hel). exists (TList e), vs.
  split; [reflexivity|]. rewrite Forall_forall in Hel. intros x Hx. exact (vgood_elem _ _ _ (Hel x Hx) Et).
Qed.

Lemma vgood_map ops K E m : vgood (TMap K E) m ->
  exists t kvs, m = VMap t kvs /\
    forall k, vgood K k -> exists kk, key_of ops k = ret kk /\ forall x, kget kk kvs = Some x -> vgood E x.
Proof.
  intros H. pose proof (vgood_head _ _ H) as S. destruct m; try contradiction S. apply vgood_good in H.
  destruct H as [G Et]. destruct (good_map_inv _ _ G) as (k1 & e1 & -> & [W1 S1] & _ & Hel). exists (TMap k1 e1), kvs.
  split; [reflexivity|]. simpl in Et. apply andb_true_iff in Et. destruct Et as [K1 E1]. intros k Hk.
  apply wf_map in W1. simpl in S1. apply andb_true_iff in S1.
  destruct (vgood_key ops k1 K k (proj1 W1) (proj1 S1) K1 Hk) as [kk Ek]. exists kk. split; [exact Ek|].
  intros x Hx. apply kget_In in Hx. rewrite Forall_forall in Hel. exact (vgood_elem _ _ _ (Hel _ Hx) E1).
Qed.

Lemma vgood_maybe E m : vgood (TMaybe E) m ->
  exists t o, m = VMaybe t o /\ match o with Some x => vgood E x | None => True end.
Proof.
  intros H. pose proof (vgood_head _ _ H) as S. destruct m as [| | | | | | |t o|]; try contradiction S. apply vgood_good in H.
  destruct H as [G Et]. destruct (good_maybe_inv _ _ G) as (e & -> & _ & Ho). exists (TMaybe e), o.
  split; [reflexivity|]. destruct o as [x|]; [exact (vgood_elem _ _ _ Ho Et)|exact I].
Qed.

Lemma wf_subst_ty_eqb : forall p s b, wf_ty p = true -> subst_wf s = true ->
  simple p = true -> ty_eqb (subst_ty s p) b = true -> wf_ty b = true -> wf_ty (subst_ty s p) = true.
Proof.
  induction p using ty_ind'; intros s b Hw Hs Hsi He Hb; try reflexivity; try discriminate Hsi.
  - simpl. destruct (assoc n s) as [u|] eqn:E; [exact (wf_assoc s n u Hs E)|reflexivity].
  - simpl in *. destruct b; try discriminate He. simpl in He, Hb. eauto.
  - apply wf_map in Hw. destruct Hw as [K [W1 W2]]. simpl in Hsi. apply andb_true_iff in Hsi. destruct Hsi as [S1 S2].
    simpl in He. destruct b; try discriminate He. apply andb_true_iff in He. destruct He as [E1 E2].
    apply wf_map in Hb. destruct Hb as [K' [W1' W2']]. simpl.
    rewrite (eqb_keyable _ _ E1), K', (IHp1 s b1), (IHp2 s b2); auto.
  - pose proof Hw as Hw'. apply wf_obj in Hw'. destruct Hw' as [_ Hwf].
    simpl in Hw. apply andb_true_iff in Hw. destruct Hw as [Hnd _].
    simpl in He. destruct b; try discriminate He. fold (subst_ty s (TObj fs)) in He. simpl subst_ty in He.
    apply ty_eqb_obj_spec in He. destruct He as [_ Hrel].
    apply wf_obj in Hb. destruct Hb as [_ Hwb].
    simpl. rewrite map_fst_keyed, Hnd. simpl.
    apply forallb_forall. intros [n t'] Hin. pose proof Hin as Hin'.
    apply in_map_iff in Hin. destruct Hin as [[n0 t] [E Hin]].
    simpl in E. inversion E; subst. simpl. destruct (Hrel _ _ Hin') as [t2 [Ha Ht2]].
    rewrite Forall_forall in H. apply (H (n, t) Hin s t2); try assumption.
    + eauto.
    + eapply simple_obj_in; eauto.
    + apply assoc_In in Ha. eauto.
  - simpl in *. destruct b; try discriminate He. simpl in He, Hb. eauto.
Qed.

Lemma subst_nil : forall t, subst_ty [] t = t.
Proof.
  induction t using ty_ind'; try reflexivity; simpl.
  - f_equal. apply map_id_in, Forall_forall. exact H.
  - rewrite IHt. reflexivity.
  - rewrite IHt1, IHt2. reflexivity.
  - f_equal. apply map_id_in. rewrite Forall_forall in H. intros [n x] Hin. simpl. f_equal. exact (H (n, x) Hin).
  - rewrite IHt. f_equal. apply map_id_in, Forall_forall. exact H.
  - rewrite IHt. reflexivity.
Qed.

Definition args_inst (s : subst) (params args : list ty) : Prop :=
  Forall2 (fun A p => ty_eqb A (subst_ty s p) = true /\ wf_ty (subst_ty s p) = true) args params.

Lemma instantiates_args s params ret args rt :
  (forall p, In p params -> simple p = true /\ wf_ty p = true) -> forallb ty_ok args = true ->
  instantiates s params ret args rt -> args_inst s params args /\ rt = subst_ty s ret.
Proof.
  intros Hp Ha [_ [_ [Hw [HT [Hrt _]]]]]. split; [|exact Hrt].
  unfold args_inst. clear Hrt.
  revert args Ha HT. induction params as [|p r IH]; intros [|A args] Ha HT; simpl in HT; try discriminate HT; [constructor|].
  apply andb_true_iff in HT. destruct HT as [H1 H2]. simpl in Ha. apply andb_true_iff in Ha. destruct Ha as [Ha1 Ha2].
  constructor; [|apply IH; auto; intros q Hq; apply Hp; right; exact Hq].
  destruct (ty_ok_parts _ Ha1) as [_ [WA _]]. destruct (Hp p (or_introl Logic.eq_refl)) as [Sp Wp].
  assert (wf_ty (subst_ty s p) = true) as W by exact (wf_subst_ty_eqb p s A Wp Hw Sp H1 WA).
  split; [apply eqb_sym_imp; assumption|exact W].
Qed.

(* the shape of each built-in's signature, up to the names of its (at most two) variables *)
Definition tmpl (b : bfun) (x y : string) : list ty * ty :=
  let X := TVar x in let Y := TVar y in
  match b with
  | BAbs | BAddNum1 | BCeil | BFloor | BRound | BSubNum1 => ([TNum], TNum)
  | BAddNum | BSubNum | BMul | BDiv | BExp | BMaxNum | BMinNum | BMod => ([TNum; TNum], TNum)
  | BAddStr => ([TStr; TStr], TStr)
  | BDiff | BIntersect | BUnion => ([TList X; TList X], TList X)
  | BEqBool | BNeBool | BAnd | BOr => ([TBool; TBool], TBool)
  | BEqList | BNeList => ([TList X; TList X], TBool)
  | BEqMap | BNeMap => ([TMap X Y; TMap X Y], TBool)
  | BEqNum | BNeNum | BGeNum | BGtNum | BLeNum | BLtNum => ([TNum; TNum], TBool)
  | BEqStr | BNeStr | BMatch => ([TStr; TStr], TBool)
  | BEqTime | BNeTime | BGeTime | BGtTime | BLeTime | BLtTime => ([TTime; TTime], TBool)
  | BGetList => ([TList X; TNum; X], X)
  | BGetMap => ([TMap X Y; X; Y], Y)
  | BGetMaybe => ([TMaybe X; X], X)
  | BIf => ([TBool; X; X], X)
  | BIsset => ([TMap X Y; X], TBool)
  | BLenList => ([TList X], TNum)
  | BLenMap => ([TMap X Y], TNum)
  | BLenStr => ([TStr], TNum)
  | BNot => ([TBool], TBool)
  | BMaxList | BMinList => ([TList TNum], TNum)
  | BPrint => ([X], X)
  | BString => ([X], TStr)
  | BStrtotime => ([TStr], TTime)
  | BSubTime => ([TTime; TTime], TNum)
  end.

(* on such types [ty_eqb] is syntactic equality *)
Fixpoint flat_ty (t : ty) : bool :=
  match t with
  | TTuple _ | TObj _ | TFun _ _ _ => false
  | TList e | TMaybe e => flat_ty e
  | TMap k v => flat_ty k && flat_ty v
  | _ => true
  end.

Lemma ty_eqb_flat : forall b a, flat_ty b = true -> ty_eqb a b = true -> a = b.
Proof.
  induction b; intros a Hf He; try discriminate Hf; destruct a; try (simpl in He; discriminate He); try reflexivity.
  - simpl in He. apply String.eqb_eq in He. subst. reflexivity.
  - simpl in *. f_equal. auto.
  - simpl in *. apply andb_true_iff in Hf. apply andb_true_iff in He. destruct Hf, He. f_equal; auto.
  - simpl in *. f_equal. auto.
Qed.

Lemma eqb_list_flat : forall l2 l1, forallb flat_ty l2 = true -> eqb_list l1 l2 = true -> l1 = l2.
Proof.
  induction l2 as [|b r IH]; intros [|a l1] Hf He; simpl in *; try discriminate He; [reflexivity|].
  apply andb_true_iff in Hf. apply andb_true_iff in He. destruct Hf, He. f_equal; [apply ty_eqb_flat|apply IH]; auto.
Qed.

Lemma tmpl_flat b x y : forallb flat_ty (fst (tmpl b x y)) = true /\ flat_ty (snd (tmpl b x y)) = true.
Proof. destruct b; split; reflexivity. Qed.

(* x and y are read off as the first two variables of the parameters in order of occurrence; that finds them because
   every row of [tmpl] mentions X before Y in its parameters, and a row that did not would fail [builtin_rows_ok] *)
Definition shape_ok (b : bfun) (ps : list ty) (r : ty) : bool :=
  let vs := flat_map vars_of ps in
  let tm := tmpl b (nth 0 vs "") (nth 1 vs "") in
  eqb_list ps (fst tm) && ty_eqb r (snd tm).

Lemma shape_ok_tmpl b ps r : shape_ok b ps r = true -> exists x y, ps = fst (tmpl b x y) /\ r = snd (tmpl b x y).
Proof.
  unfold shape_ok. intros H. apply andb_true_iff in H. destruct H as [H1 H2].
  set (x := nth 0 (flat_map vars_of ps) "") in *. set (y := nth 1 (flat_map vars_of ps) "") in *.
  exists x, y. destruct (tmpl_flat b x y) as [F1 F2].
  split; [apply eqb_list_flat|apply ty_eqb_flat]; assumption.
Qed.

Definition row_ok (sg : fsig) : bool :=
  sig_is_builtin sg &&
  match classify (s_name sg) (s_params sg) with
  | Some b => shape_ok b (s_params sg) (s_ret sg) && Bool.eqb (s_lazy sg) (is_lazy_builtin b)
  | None => false
  end.

Lemma builtin_rows_ok : forallb row_ok (map sig_of_tuple builtin_sigs) = true.
Proof. vm_compute. reflexivity. Qed.

Lemma user_rows_not_builtin : forallb (fun sg => negb (sig_is_builtin sg)) user_sigs = true.
Proof. vm_compute. reflexivity. Qed.

Lemma tables_ok : fenv_ok builtin_fenv = true /\ fenv_ok fenv_std = true.
Proof. split; [exact builtin_table_ok|vm_compute; reflexivity]. Qed.

Definition sig_in (fe : fenv) (sg : fsig) : Prop :=
  (exists k, In (k, sg) (f_mono fe)) \/ (exists k sigs, In (k, sigs) (f_poly fe) /\ In sg sigs).

Lemma sput_In {X} k (x : X) l k' x' : In (k', x') (sput k x l) -> (k' = k /\ x' = x) \/ In (k', x') l.
Proof.
  induction l as [|[k0 x0] r IH]; simpl; intros H.
  - destruct H as [E|[]]. inversion E; auto.
  - destruct (String.eqb k k0).
    + destruct H as [E|H]; [inversion E; auto|auto].
    + destruct H as [E|H]; [auto|]. destruct (IH H); auto.
Qed.

Lemma register_in fe s sg : sig_in (register fe s) sg -> sig_in fe sg \/ sg = s.
Proof.
  unfold register. destruct (slot_free (sig_ty s)); simpl; intros [[k H]|[k [sigs [H1 H2]]]].
  - apply sput_In in H. destruct H as [[_ E]|H]; [right; exact E|left; left; eauto].
  - left; right; eauto.
  - left; left; eauto.
  - apply sput_In in H1. destruct H1 as [[_ E]|H1]; [|left; right; eauto].
    subst sigs. apply in_app_or in H2. destruct H2 as [H2|[E|[]]]; [|right; auto].
    destruct (assoc (poly_key (s_name s) (Datatypes.length (s_params s))) (f_poly fe)) as [old|] eqn:Eo; [|destruct H2].
    left; right. apply assoc_In in Eo. eauto.
Qed.

Lemma fold_register_in : forall l fe sg, sig_in (fold_left register l fe) sg -> sig_in fe sg \/ In sg l.
Proof.
  induction l as [|s r IH]; simpl; intros fe sg H; [auto|].
  destruct (IH _ _ H) as [H1|H1]; [|auto]. destruct (register_in _ _ _ H1); auto.
Qed.

Lemma sig_in_empty sg : ~ sig_in fenv_empty sg.
Proof. intros [[k []]|[k [sigs [[] _]]]]. Qed.

Definition lib_sigs : list fsig := user_sigs ++ map sig_of_tuple builtin_sigs.

Lemma table_sigs fe sg : fe = builtin_fenv \/ fe = fenv_std -> sig_in fe sg -> In sg lib_sigs.
Proof.
  unfold lib_sigs. intros [E|E] H; subst fe; apply fold_register_in in H; destruct H as [H|H];
    try (exfalso; exact (sig_in_empty _ H)).
  - apply in_or_app. right. exact H.
  - exact H.
Qed.

Lemma lookup_in fe key idx sg : lookup_fn fe key idx = Some sg -> sig_in fe sg.
Proof.
  unfold lookup_fn. destruct (Z.ltb idx 0).
  - intros H. left. exists key. apply assoc_In. exact H.
  - destruct (assoc key (f_poly fe)) as [l|] eqn:E; [|discriminate]. intros H. right. exists key, l.
    split; [apply assoc_In; exact E|eapply nth_error_In; eauto].
Qed.

(* through [Forall2_cons_r] and [Forall2_nil_r]: [inversion] on every argument of every built-in is slow to check *)
Ltac inv_F2 :=
  repeat match goal with
         | H : Forall2 _ _ (_ :: _) |- _ => apply Forall2_cons_r in H; destruct H as (? & ? & -> & ? & H)
         | H : Forall2 _ _ [] |- _ => apply Forall2_nil_r in H; subst
         | H : Forall _ (_ :: _) |- _ => apply Forall_cons_iff in H; destruct H as [? H]
         | H : Forall _ [] |- _ => clear H
         end.

Ltac prim_vals :=
  repeat match goal with
         | H : vgood TNum ?v |- _ => let b := fresh "b" in destruct (vgood_num_inv v H) as [b ->]; clear H
         | H : vgood TBool ?v |- _ => let b := fresh "b" in destruct (vgood_bool_inv v H) as [b ->]; clear H
         | H : vgood TStr ?v |- _ => let b := fresh "b" in destruct (vgood_str_inv v H) as [b ->]; clear H
         | H : vgood TTime ?v |- _ =>
             let a := fresh "sec" in let b := fresh "nsec" in destruct (vgood_time_inv v H) as [a [b ->]]; clear H
         end.

Section BsemGood.
  Variable ops : numops.
  Variable orc : oracles.

  Lemma setop_good E a b (op : list val -> list val -> list val) :
    (forall xs ys v, In v (op xs ys) -> In v xs \/ In v ys) ->
    vgood (TList E) a -> vgood (TList E) b -> wf_ty (TList E) = true ->
    okM (vgood (TList E)) (let^ xs := as_list a in let^ ys := as_list b in ret (VList (val_type a) (op xs ys))).
  Proof.
    intros Hop Ha Hb W. pose proof (vgood_head _ _ Ha) as Sa. pose proof (vgood_head _ _ Hb) as Sb.
    destruct a as [| | | |ta xs| | | |]; try contradiction Sa. destruct b as [| | | |tb ys| | | |]; try contradiction Sb.
    apply vgood_good in Ha. destruct Ha as [Ga E1]. apply vgood_good in Hb. destruct Hb as [Gb E2].
    destruct (good_list_inv _ _ Ga) as (e1 & -> & G1 & O1). destruct (good_list_inv _ _ Gb) as (e2 & -> & G2 & O2).
    simpl as_list. rewrite !mbind_ret_l. simpl val_type. apply okM_ret.
    apply vgood_good. split; [|exact E1]. apply good_list; [exact G1|].
    rewrite Forall_forall in O1, O2. apply Forall_forall. intros v Hv. destruct (Hop _ _ v Hv) as [Hin|Hin]; [exact (O1 v Hin)|].
    destruct (O2 v Hin) as [P1 P2]. split; [exact P1|].
    eapply eqb_trans; [exact P2|]. eapply eqb_trans; [exact E2|]. apply eqb_sym_imp; [exact (proj1 G1)|exact W|exact E1].
  Qed.

  Lemma fold_num_good f vs : (forall x, In x vs -> vgood TNum x) -> okM (vgood TNum) (fold_num ops f vs).
  Proof.
    intros H. unfold fold_num. destruct vs as [|v0 r]; [apply okM_ret; apply vgood_num|].
    destruct (vgood_num_inv _ (H v0 (or_introl Logic.eq_refl))) as [b0 ->]. simpl as_num. rewrite mbind_ret_l.
    eapply okM_bind with (Q := fun _ => True); [|intros; apply okM_ret; apply vgood_num].
    assert (forall x, In x r -> vgood TNum x) as Hr by (intros z Hz; apply H; right; exact Hz).
    clear H. generalize b0. induction r as [|v r IH]; intros acc; [apply okM_ret; exact I|].
    destruct (vgood_num_inv _ (Hr v (or_introl Logic.eq_refl))) as [bv ->]. simpl as_num. rewrite mbind_ret_l.
    apply IH. intros w Hw. apply Hr. right; exact Hw.
  Qed.

  Lemma fold_list_good f a : vgood (TList TNum) a -> okM (vgood TNum) (let^ vs := as_list a in fold_num ops f vs).
  Proof.
    intros H. destruct (vgood_list _ _ H) as (t & vs & -> & Hel). simpl as_list. rewrite mbind_ret_l.
    apply fold_num_good. exact Hel.
  Qed.

  Lemma num1_good s vs T f : Forall2 (fun v p => vgood (subst_ty s p) v) vs [TNum] ->
    (forall a, vgood T (f a)) -> okM (vgood T) (num1 vs f).
  Proof. intros H Hf. inv_F2. simpl subst_ty in *. prim_vals. exact (Hf _). Qed.

  Lemma num2_good s vs T f : Forall2 (fun v p => vgood (subst_ty s p) v) vs [TNum; TNum] ->
    (forall a b, vgood T (f a b)) -> okM (vgood T) (num2 vs f).
  Proof. intros H Hf. inv_F2. simpl subst_ty in *. prim_vals. exact (Hf _ _). Qed.

  Lemma time2_good s vs T f : Forall2 (fun v p => vgood (subst_ty s p) v) vs [TTime; TTime] ->
    (forall s1 n1 s2 n2, vgood T (f s1 n1 s2 n2)) -> okM (vgood T) (time2 vs f).
  Proof. intros H Hf. inv_F2. simpl subst_ty in *. prim_vals. exact (Hf _ _ _ _). Qed.

  Lemma any2_good s vs p q T f : Forall2 (fun v p => vgood (subst_ty s p) v) vs [p; q] ->
    (forall a b, vgood T (f a b)) -> okM (vgood T) (any2 vs f).
  Proof. intros H Hf. inv_F2. exact (Hf _ _). Qed.

  Lemma bsem_good b x y s vs :
    is_lazy_builtin b = false ->
    Forall2 (fun v p => vgood (subst_ty s p) v) vs (fst (tmpl b x y)) ->
    Forall (fun p => wf_ty (subst_ty s p) = true) (fst (tmpl b x y)) ->
    okM (vgood (subst_ty s (snd (tmpl b x y)))) (bsem ops orc b vs).
  Proof.
    intros Hl HF HW. destruct b; try discriminate Hl; unfold bsem;
      try (first [ apply (num1_good s vs _ _ HF) | apply (num2_good s vs _ _ HF) | apply (time2_good s vs _ _ HF)
                 | apply (any2_good s vs _ _ _ _ HF) ]; intros; first [exact (vgood_num _) | exact (vgood_bool _)]).
    (* the instances of x and y are named, so that [simpl] leaves them alone and the set operations find one element
       type in both operands *)
    all: simpl in HF, HW; inv_F2; simpl subst_ty in *;
      try set (SX := match assoc x s with Some u => u | None => TVar x end) in *;
      try set (SY := match assoc y s with Some u => u | None => TVar y end) in *; prim_vals;
      try (unfold okM; simpl; auto using vgood_num, vgood_bool, vgood_str, vgood_time; fail).
    - (* diff *)
      apply (setop_good SX _ _ (set_diff ops)); try assumption.
      intros xs ys v Hv. left. exact (proj1 (proj1 (proj2 (C04Proofs.diff_spec ops xs ys)) v Hv)).
    - (* get list *)
      match goal with H1 : vgood (TList _) _ |- _ => destruct (vgood_list _ _ H1) as (t & vs1 & -> & Hel) end.
      unfold okM; simpl.
      destruct (Z.ltb (to_i64 ops b) 0 || Z.leb (Z.of_nat (len vs1)) (to_i64 ops b)); simpl; [assumption|].
      destruct (nth_error vs1 (Z.to_nat (to_i64 ops b))) as [v|] eqn:En; simpl; [|assumption].
      apply Hel. eapply nth_error_In; eauto.
    - (* get map *)
      match goal with H1 : vgood (TMap _ _) _, H2 : vgood SX _ |- _ =>
        destruct (vgood_map ops _ _ _ H1) as (t & kvs & -> & Hk); destruct (Hk _ H2) as (kk & Ek & Hel) end.
      unfold okM; simpl. rewrite Ek. simpl. destruct (kget kk kvs) as [v|]; simpl; [exact (Hel v Logic.eq_refl)|assumption].
    - (* get maybe *)
      match goal with H1 : vgood (TMaybe _) _ |- _ => destruct (vgood_maybe _ _ H1) as (t & o & -> & Ho) end.
      unfold okM; simpl. destruct o as [v|]; simpl; assumption.
    - (* intersect *)
      apply (setop_good SX _ _ (set_intersect ops)); try assumption.
      intros xs ys v Hv. right. exact (proj1 (proj1 (proj2 (C04Proofs.intersect_spec ops xs ys)) v Hv)).
    - (* isset *)
      match goal with H1 : vgood (TMap _ _) _, H2 : vgood SX _ |- _ =>
        destruct (vgood_map ops _ _ _ H1) as (t & kvs & -> & Hk); destruct (Hk _ H2) as (kk & Ek & _) end.
      unfold okM; simpl. rewrite Ek. simpl. apply vgood_bool.
    - (* len list *)
      match goal with H1 : vgood (TList _) _ |- _ => destruct (vgood_list _ _ H1) as (t & vs1 & -> & _) end.
      apply vgood_num.
    - (* len map *)
      match goal with H1 : vgood (TMap _ _) _ |- _ => destruct (vgood_map ops _ _ _ H1) as (t & kvs & -> & _) end.
      apply vgood_num.
    - (* match *)
      unfold okM; simpl. destruct (o_regex orc b0 b); simpl; [apply vgood_bool|exact I].
    - (* max *) apply fold_list_good. assumption.
    - (* min *) apply fold_list_good. assumption.
    - (* mod *)
      unfold okM; simpl. destruct (Z.eqb (to_i64 ops b) 0); simpl; [exact I|apply vgood_num].
    - (* union *)
      apply (setop_good SX _ _ (set_union ops)); try assumption. intros xs ys. exact (proj1 (proj2 (C04Proofs.union_spec ops xs ys))).
  Qed.
End BsemGood.

Lemma obj_load_get fs vs idx name : NoDup (map fst fs) ->
  obj_load (TObj fs) vs idx name = obj_get (TObj fs) vs name.
Proof.
  intros Hnd. unfold obj_load. destruct (nth_error fs idx) as [[n t]|] eqn:E; [|reflexivity].
  destruct (String.eqb_spec n name) as [En|En]; [|reflexivity]. subst n.
  unfold obj_get. rewrite (nth_index_of name fs idx t Hnd E). reflexivity.
Qed.

Lemma vgood_obj fs o : vgood (TObj fs) o -> wf_ty (TObj fs) = true ->
  exists t vs, o = VObj t vs /\ forall name ft, assoc name fs = Some ft ->
    exists x, obj_get t vs name = Some x /\ (forall idx, obj_load t vs idx name = Some x) /\ vgood ft x.
Proof.
  intros H Wf. pose proof (vgood_head _ _ H) as S. destruct o; try contradiction S. apply vgood_good in H.
  destruct H as [G Eq]. destruct (good_objval_inv _ _ G) as (fs' & -> & [W _] & F). exists (TObj fs'), vs.
  split; [reflexivity|]. intros name ft Ha.
  apply ty_eqb_obj_spec in Eq. destruct Eq as [Hlen Hrel].
  apply wf_obj in W. destruct W as [Nd' _]. apply wf_obj in Wf. destruct Wf as [Nd _].
  destruct (fields_rel_flip _ _ _ Nd' Nd Hlen Hrel name ft (assoc_In _ _ _ Ha)) as [t' [Ha' Et]].
  destruct (assoc_index_of _ _ _ Ha') as [i Hi]. destruct (index_of_nth _ _ _ Hi) as [t2 [Hn Ha2]].
  rewrite Ha' in Ha2. inversion Ha2; subst t2. destruct (Forall2_nth_l _ _ _ _ _ F Hn) as (x & Ex & Gx).
  assert (obj_get (TObj fs') vs name = Some x) as Eg by (unfold obj_get; rewrite Hi; exact Ex).
  exists x. split; [exact Eg|]. split; [intros idx; rewrite obj_load_get by exact Nd'; exact Eg|].
  exact (vgood_elem _ _ _ Gx Et).
Qed.

Section SigSpec.
  Variable ops : numops.
  Variable orc : oracles.

  Definition thunk_ok (T : ty) (th : unit -> M val) : Prop := okM (vgood T) (th tt).

  Definition strict_spec (sg : fsig) : Prop :=
    forall s vs, Forall2 (fun v p => vgood (subst_ty s p) v) vs (s_params sg) ->
      Forall (fun p => wf_ty (subst_ty s p) = true) (s_params sg) ->
      okM (vgood (subst_ty s (s_ret sg))) (apply_strict ops orc sg vs).

  Definition lazy_spec (sg : fsig) : Prop :=
    forall s ths, Forall2 (fun th p => thunk_ok (subst_ty s p) th) ths (s_params sg) ->
      okM (vgood (subst_ty s (s_ret sg))) (lazy_call sg ths).

  Definition sig_spec (sg : fsig) : Prop := if s_lazy sg then lazy_spec sg else strict_spec sg.

  Lemma okM_cond (P : val -> Prop) th (k : bool -> M val) :
    thunk_ok TBool th -> (forall b, okM P (k b)) -> okM P (let^ v := th tt in let^ b := as_bool v in k b).
  Proof.
    intros Hth Hk. eapply okM_bind; [exact Hth|]. intros v Hv. destruct (vgood_bool_inv _ Hv) as [b ->].
    eapply okM_bind with (Q := fun _ => True); [exact I|auto].
  Qed.

  Lemma lazy_if_ok T c a b : thunk_ok TBool c -> thunk_ok T a -> thunk_ok T b -> okM (vgood T) (lazy_if [c; a; b]).
  Proof. intros Hc Ha Hb. apply okM_cond; [exact Hc|]. intros [|]; assumption. Qed.

  Lemma lazy_and_ok a b : thunk_ok TBool a -> thunk_ok TBool b -> okM (vgood TBool) (lazy_and [a; b]).
  Proof.
    intros Ha Hb. apply okM_cond; [exact Ha|]. intros [|]; [|apply vgood_bool].
    apply okM_cond; [exact Hb|]. intros bb. apply vgood_bool.
  Qed.

  Lemma lazy_or_ok a b : thunk_ok TBool a -> thunk_ok TBool b -> okM (vgood TBool) (lazy_or [a; b]).
  Proof.
    intros Ha Hb. apply okM_cond; [exact Ha|]. intros [|]; [apply vgood_bool|].
    apply okM_cond; [exact Hb|]. intros bb. apply vgood_bool.
  Qed.

  Lemma builtin_row_spec sg : row_ok sg = true -> sig_spec sg.
  Proof.
    unfold row_ok. intros H. apply andb_true_iff in H. destruct H as [Hb H].
    destruct (classify (s_name sg) (s_params sg)) as [b|] eqn:Ec; [|discriminate H].
    apply andb_true_iff in H. destruct H as [Hs Hl]. apply Bool.eqb_prop in Hl.
    destruct (shape_ok_tmpl _ _ _ Hs) as [x [y [Ep Er]]].
    unfold sig_spec, lazy_spec, strict_spec, lazy_call, apply_strict. rewrite Hl, Hb, Ep, Er.
    destruct (is_lazy_builtin b) eqn:El.
    - intros s ths HF. destruct b; try discriminate El; simpl in HF; inv_F2.
      + rewrite apply_lazy_eq, Ec. apply lazy_if_ok; assumption.
      + rewrite apply_lazy_eq, Ec. apply lazy_and_ok; assumption.
      + rewrite apply_lazy_eq, Ec. apply lazy_or_ok; assumption.
    - intros s vs HF HW. rewrite <- Ep, Ec. apply bsem_good; assumption.
  Qed.

  Lemma user_sig_spec sg : In sg user_sigs -> sig_spec sg.
  Proof.
    intros Hin.
    assert (sig_is_builtin sg = false) as Hnb.
    { pose proof user_rows_not_builtin as H. rewrite forallb_forall in H. apply negb_true_iff. apply H. exact Hin. }
    unfold user_sigs in Hin. simpl in Hin.
    repeat (destruct Hin as [E|Hin]; [subst sg|]); try contradiction;
      unfold sig_spec; simpl s_lazy; cbv iota;
      lazymatch goal with
      | |- strict_spec _ => intros s vs HF HW; unfold apply_strict; rewrite Hnb; clear Hnb; simpl in HF, HW; inv_F2;
                            simpl subst_ty in *; prim_vals
      | |- lazy_spec _ => intros s ths HF; unfold lazy_call; rewrite Hnb; clear Hnb; simpl in HF; inv_F2;
                          simpl subst_ty in *; unfold thunk_ok in *
      end;
      (* the strict rows but [area] compute, on arguments that are primitive values, a value of the result type *)
      try (unfold okM; simpl; auto using vgood_num, vgood_bool, vgood_str; fail).
    - (* area *)
      match goal with H : vgood (TObj _) ?v |- _ =>
        destruct (vgood_obj _ _ H Logic.eq_refl) as (t & vs' & -> & Hf);
        destruct (Hf "w" TNum Logic.eq_refl) as (w & Ew & _ & Gw); destruct (Hf "h" TNum Logic.eq_refl) as (h & Eh & _ & Gh)
      end.
      prim_vals. unfold host_strict. simpl s_name. simpl (String.eqb _ _). cbv iota.
      apply okM_emit. rewrite Ew, Eh. unfold okM; simpl. apply vgood_num.
    - simpl s_name. rewrite host_lazy_lazyif. apply okM_emit. apply lazy_if_ok; assumption.
    - simpl s_name. rewrite host_lazy_both. apply okM_emit. apply lazy_and_ok; assumption.
  Qed.
End SigSpec.

Lemma lib_sig_spec ops orc sg : In sg lib_sigs -> sig_spec ops orc sg.
Proof.
  unfold lib_sigs. intros H. apply in_app_or in H. destruct H as [H|H].
  - apply user_sig_spec. exact H.
  - apply builtin_row_spec. pose proof builtin_rows_ok as R. rewrite forallb_forall in R. apply R. exact H.
Qed.

Lemma instantiates_mono sg args : slot_free (sig_ty sg) = true -> params_match (s_params sg) args = true ->
  instantiates [] (s_params sg) (s_ret sg) args (s_ret sg).
Proof.
  intros Hsf EM. simpl in Hsf. apply andb_true_iff in Hsf. destruct Hsf as [_ Hsf].
  repeat split; try reflexivity.
  - intros n [].
  - rewrite (map_ext _ (fun t => t) subst_nil), map_id. exact EM.
  - symmetry. apply subst_nil.
  - exact Hsf.
Qed.

Lemma resolve_info fe fuel fresh name args key idx ps rt :
  fenv_ok fe = true -> fresh_ok fe fresh -> forallb ty_ok args = true ->
  resolve fe fuel fresh name args = COk (key, idx, ps, rt) -> params_match ps args = true ->
  String.eqb key "" = false /\
  exists sg s, lookup_fn fe key idx = Some sg /\ args_inst s (s_params sg) args /\ rt = subst_ty s (s_ret sg).
Proof.
  intros Hfe Hfr Ha ER EM.
  assert (String.eqb key "" = false /\ exists sg s, lookup_fn fe key idx = Some sg /\ sig_ok sg = true /\
            instantiates s (s_params sg) (s_ret sg) args rt) as [Hk (sg & s & Hl & Hs & HI)].
  { (* both keys begin with a literal character ([u_lambda], [u_forall]); "" is the key of a dynamic call *)
    destruct (resolve_spec _ _ _ _ _ _ _ _ _ Hfe Hfr Ha ER)
      as [_ [(sg & Em & -> & -> & -> & ->)|(sigs & sg & s & _ & Ep & -> & L & N & _ & _ & HI)]].
    - destruct (fenv_mono fe _ sg Hfe Em) as [Hs Hsf]. split; [reflexivity|]. exists sg, [].
      split; [exact Em|]. split; [exact Hs|]. apply instantiates_mono; assumption.
    - split; [reflexivity|]. exists sg, s.
      split; [|split; [exact (proj1 (fenv_poly _ _ _ _ Hfe Ep (nth_error_In _ _ N)))|exact HI]].
      unfold lookup_fn. destruct (Z.ltb_spec idx 0) as [Hlt|_]; [lia|]. rewrite Ep. exact N. }
  split; [exact Hk|]. exists sg, s. split; [exact Hl|].
  exact (instantiates_args _ _ _ _ _ (proj1 (sig_ok_parts _ Hs)) Ha HI).
Qed.

Lemma static_call_arity fe fuel fresh name args key idx ps rt sg :
  fenv_ok fe = true -> fresh_ok fe fresh -> forallb ty_ok args = true ->
  resolve fe fuel fresh name args = COk (key, idx, ps, rt) -> params_match ps args = true ->
  lookup_fn fe key idx = Some sg -> len (s_params sg) = len args.
Proof.
  intros Hfe Hfr Ha ER EM HL. destruct (resolve_info _ _ _ _ _ _ _ _ _ Hfe Hfr Ha ER EM) as (_ & sg' & s & HL' & Hin & _).
  rewrite HL in HL'. injection HL' as <-. symmetry. exact (Forall2_len _ _ _ Hin).
Qed.

Section Main.
  Variables (ops : numops) (orc : oracles) (fe : fenv) (G : tenv) (rho : venv) (fuel : nat) (fresh : N).
  Hypothesis Hfe : fenv_ok fe = true.
  Hypothesis Hsig : forall sg, sig_in fe sg -> sig_spec ops orc sg.
  Hypothesis HG : tenv_ok G = true.
  Hypothesis Hrho : env_ok G rho.
  Hypothesis Hfr : fresh_ok fe fresh.
  Notation ev := (eval ops orc fe rho).

  Definition ev_ok (T : ty) (a : aexpr) : Prop := forall f, okM (vgood T) (ev f a).

  Lemma ev_ok_S T a : (forall f, okM (vgood T) (ev (S f) a)) -> ev_ok T a.
  Proof. intros H [|f]; [exact Logic.eq_refl|apply H]. Qed.

  Lemma ev_ok_ret T a v : (forall f, ev (S f) a = ret v) -> vgood T v -> ev_ok T a.
  Proof. intros E H. apply ev_ok_S. intros f. rewrite E. exact H. Qed.

  Lemma ev_ok_eqb T T' a : ty_eqb T T' = true -> ev_ok T a -> ev_ok T' a.
  Proof. intros E H f. eapply okM_weaken; [apply H|]. intros v. apply vgood_eqb. exact E. Qed.

  Lemma ev_ok_list t0 a0 ars :
    ty_ok t0 = true -> Forall (ev_ok t0) (a0 :: ars) -> ev_ok (TList t0) (AList (TList t0) (a0 :: ars)).
  Proof.
    intros K0 H. destruct (ty_ok_parts _ K0) as [S0 [W0 _]]. apply ev_ok_S. intros f. rewrite eval_list.
    eapply okM_bind; [apply okM_mmapM_all; eapply Forall_impl; [|exact H]; intros x Hx; exact (Hx f)|].
    intros vs Hvs. apply okM_ret, vgood_good. split; [|exact (eq_refl _ W0)]. apply good_list; [split; assumption|].
    eapply Forall_impl; [|exact Hvs]. intros x Hx. apply vgood_good. exact Hx.
  Qed.

  Definition acc_ok (vt : ty) (acc : list (list N * val)) : Prop :=
    nodup_keys (map fst acc) = true /\ forall kv, In kv acc -> vgood vt (snd kv).

  Lemma map_go_ok kt vt g : is_primitive kt = true -> forall kvs,
    Forall (fun kv => okM (vgood kt) (g (fst kv)) /\ okM (vgood vt) (g (snd kv))) kvs ->
    forall acc, acc_ok vt acc -> okM (acc_ok vt) (map_go ops g kvs acc).
  Proof.
    intros Hp. induction 1 as [|[k v] r [Hk Hv] Hr IH]; intros acc Hacc; simpl.
    - apply okM_ret. exact Hacc.
    - simpl in Hk, Hv. eapply okM_bind; [exact Hk|]. intros kv Hkv.
      destruct (vgood_prim_key ops kv kt Hp Hkv) as [kk Ek]. rewrite Ek, mbind_ret_l.
      eapply okM_bind; [exact Hv|]. intros vv Hvv. apply IH. destruct Hacc as [N1 N2].
      split; [apply kput_nodup; exact N1|].
      intros e He. apply kput_In in He. destruct He as [->|He]; [exact Hvv|auto].
  Qed.

  Lemma vmap_good kt vt entries : ty_ok (TMap kt vt) = true -> acc_ok vt entries ->
    vgood (TMap kt vt) (VMap (TMap kt vt) entries).
  Proof.
    intros K [N1 N2]. destruct (ty_ok_parts _ K) as [S [W _]]. apply vgood_good. split; [|exact (eq_refl _ W)].
    apply good_map; [split; assumption|exact N1|]. apply Forall_forall. intros kv Hin. apply vgood_good. exact (N2 kv Hin).
  Qed.

  Lemma ev_ok_map kt vt kv0 ars : is_primitive kt = true -> ty_ok kt = true -> ty_ok vt = true ->
    Forall (fun kv => ev_ok kt (fst kv) /\ ev_ok vt (snd kv)) (kv0 :: ars) ->
    ev_ok (TMap kt vt) (AMap (TMap kt vt) (kv0 :: ars)).
  Proof.
    intros Ep Kk Kv H. apply ev_ok_S. intros f. rewrite eval_map. eapply okM_bind.
    - apply (map_go_ok kt vt (ev f) Ep (kv0 :: ars)); [|split; [reflexivity|intros kv []]].
      eapply Forall_impl; [|exact H]. intros x [Hx1 Hx2]. split; [apply Hx1|apply Hx2].
    - intros entries He. apply okM_ret. apply vmap_good; [|exact He]. apply ty_ok_map; assumption.
  Qed.

  Lemma ev_ok_obj (afs : list (string * aexpr * ty)) :
    let T := TObj (map (fun z => (fst (fst z), snd z)) afs) in
    ty_ok T = true -> Forall (fun z => ev_ok (snd z) (snd (fst z))) afs ->
    ev_ok T (AObj T (map (fun z => (fst (fst z), snd (fst z))) afs)).
  Proof.
    intros T KT Hafs. apply ev_ok_S. intros f. rewrite eval_obj.
    destruct (map (fun z : string * aexpr * ty => (fst (fst z), snd (fst z))) afs) as [|q qs] eqn:Em.
    { destruct afs; [apply okM_ret; split; reflexivity|discriminate Em]. }
    rewrite <- Em, <- mmapM_map. clear Em q qs. simpl snd. eapply okM_bind.
    - apply (okM_mmapM (fun z v => vgood (snd z) v)). eapply Forall_impl; [|exact Hafs]. intros z Hz. exact (Hz f).
    - intros vs Hvs. apply okM_ret. destruct (ty_ok_parts _ KT) as [S [W _]].
      apply vgood_good. split; [|exact (eq_refl _ W)]. apply good_objval; [split; assumption|].
      apply Forall2_map_left. eapply Forall2_imp; [|exact Hvs]. intros z v Hv. apply vgood_good. exact Hv.
  Qed.

  Lemma ev_ok_ident c n t : assoc n G = Some t -> ev_ok t (AIdent c n).
  Proof.
    intros Ea. destruct (Hrho _ _ Ea) as [v [Hv Hg]]. apply (ev_ok_ret _ _ v); [|exact Hg].
    intros f. rewrite eval_ident, Hv. reflexivity.
  Qed.

  Lemma call_args_ok s f : forall aargs params,
    Forall (fun at_ : aexpr * ty => ev_ok (snd at_) (fst at_)) aargs -> args_inst s params (map snd aargs) ->
    Forall2 (fun ax p => okM (vgood (subst_ty s p)) (ev f ax)) (map fst aargs) params /\
    Forall (fun p => wf_ty (subst_ty s p) = true) params.
  Proof.
    unfold args_inst. induction aargs as [|[ax A] r IH]; intros params HF HI; simpl in HI.
    - inversion HI. split; constructor.
    - inversion HI as [|? p ? ps [E W] HI']; subst. inversion HF as [|? ? Hx Hr]; subst.
      destruct (IH _ Hr HI') as [I1 I2]. split; constructor; try assumption. exact (ev_ok_eqb _ _ _ E Hx f).
  Qed.

  Lemma ev_ok_call c key idx ft callee (aargs : list (aexpr * ty)) sg s :
    String.eqb key "" = false -> lookup_fn fe key idx = Some sg ->
    Forall (fun z => ev_ok (snd z) (fst z)) aargs -> args_inst s (s_params sg) (map snd aargs) ->
    ev_ok (subst_ty s (s_ret sg)) (ACall c key idx ft callee (map fst aargs)).
  Proof.
    intros Hk Hl Hev Hi. apply ev_ok_S. intros f. rewrite eval_call, Hk, Hl.
    pose proof (Hsig _ (lookup_in _ _ _ _ Hl)) as Hspec.
    destruct (call_args_ok s f aargs (s_params sg) Hev Hi) as [HA HW].
    unfold do_call. unfold sig_spec in Hspec. destruct (s_lazy sg).
    - apply Hspec. apply Forall2_map_left. exact HA.
    - eapply okM_bind; [exact (okM_mmapM2 (fun q v => vgood (subst_ty s q) v) _ _ _ HA)|].
      intros vs Hvs. apply Hspec; assumption.
  Qed.

  Lemma ev_ok_sub_list c vt el av ai : ev_ok (TList el) av -> ev_ok TNum ai -> ev_ok el (ASub c vt av ai).
  Proof.
    intros Hv Hi. apply ev_ok_S. intros f. rewrite eval_sub.
    eapply okM_bind; [apply Hv|]. intros x Hx. destruct (vgood_list _ _ Hx) as (t & vs & -> & Hel).
    eapply okM_bind; [apply Hi|]. intros iv Hiv.
    destruct (vgood_num_inv _ Hiv) as [n ->]. unfold list_load_m. simpl as_num. rewrite mbind_ret_l. cbv zeta.
    destruct (Z.ltb (to_i64 ops n) 0 || Z.leb (Z.of_nat (len vs)) (to_i64 ops n)); [apply okM_fail|].
    destruct (nth_error vs (Z.to_nat (to_i64 ops n))) as [e|] eqn:En; [|apply okM_fail].
    apply okM_ret. apply Hel. eapply nth_error_In; eauto.
  Qed.

  Lemma ev_ok_sub_map c vt' kt vt av ai : ev_ok (TMap kt vt) av -> ev_ok kt ai -> ev_ok vt (ASub c vt' av ai).
  Proof.
    intros Hv Hi. apply ev_ok_S. intros f. rewrite eval_sub.
    eapply okM_bind; [apply Hv|]. intros x Hx. destruct (vgood_map ops _ _ _ Hx) as (t & kvs & -> & Hk).
    eapply okM_bind; [apply Hi|]. intros kv Hkv. destruct (Hk _ Hkv) as (kk & Ek & Hel).
    unfold map_load_m. rewrite Ek, mbind_ret_l.
    destruct (kget kk kvs) as [e|]; [exact (Hel e Logic.eq_refl)|apply okM_fail].
  Qed.

  Lemma ev_ok_member c ot idx ao fs name ft :
    ev_ok (TObj fs) ao -> wf_ty (TObj fs) = true -> assoc name fs = Some ft -> ev_ok ft (AMember c ot idx ao name).
  Proof.
    intros Ho W Ea. apply ev_ok_S. intros f. rewrite eval_member.
    eapply okM_bind; [apply Ho|]. intros x Hx. destruct (vgood_obj _ _ Hx W) as (t & vs & -> & Hf).
    destruct (Hf _ _ Ea) as (e & _ & El & Ge). unfold member_m. rewrite El. exact Ge.
  Qed.

  (* the checker compares a later element's type with the first one's, in this order *)
  Lemma ev_ok_assert t0 t a : ty_ok t0 = true -> ty_ok t = true -> ty_eqb t0 t = true -> ev_ok t a -> ev_ok t0 a.
  Proof. intros K0 K E. apply ev_ok_eqb. apply ok_sym; assumption. Qed.

  Lemma eval_ok e a T : check fe G fuel fresh e = COk (a, T) -> ev_ok T a.
  Proof.
    intros HC.
    refine (proj1 (check_ind fe G fuel fresh Hfe HG Hfr (fun _ a T => ev_ok T a) _ _ _ _ _ _ _ _ _ _ _ _ _ _ e a T HC)).
    - intros p t v _. apply (ev_ok_ret _ _ (VStr v)); [reflexivity|apply vgood_str].
    - intros p t n _. apply (ev_ok_ret _ _ (VNum (lit_num ops n))); [reflexivity|apply vgood_num].
    - intros p t. eapply ev_ok_ret; [reflexivity|apply vgood_time].
    - intros p b. eapply ev_ok_ret; [reflexivity|apply vgood_bool].
    - intros p. apply (ev_ok_ret _ _ (VList (TList TBot) [])); [reflexivity|split; reflexivity].
    - intros p e0 rest a0 t0 ars H0 K0 Hr. apply ev_ok_list; [exact K0|]. constructor; [exact H0|].
      eapply Forall2_Forall_r; [exact Hr|]. intros x ax (t & Ht & Kt & Et). exact (ev_ok_assert _ _ _ K0 Kt Et Ht).
    - intros p. apply (ev_ok_ret _ _ (VMap (TMap TBot TBot) [])); [reflexivity|split; reflexivity].
    - intros p k0 v0 rest ak0 kt av0 vt ars Hk Kk Ep Hv Kv Hr. apply ev_ok_map; try assumption.
      constructor; [split; assumption|]. eapply Forall2_Forall_r; [exact Hr|].
      intros kv akv (t1 & t2 & H1 & K1 & E1 & H2 & K2 & E2).
      split; [exact (ev_ok_assert _ _ _ Kk K1 E1 H1)|exact (ev_ok_assert _ _ _ Kv K2 E2 H2)].
    - intros p fs afs HF _ KT. apply ev_ok_obj; [exact KT|].
      eapply Forall2_Forall_r; [exact HF|]. intros f z (_ & Hz & _). exact Hz.
    - intros p n t _ Ea. exact (ev_ok_ident _ _ _ Ea).
    - intros p col pn n args aargs key idx ps rt HF ER EM.
      destruct (resolve_info _ _ _ _ _ _ _ _ _ Hfe Hfr (args_ok _ _ _ HF) ER EM) as [Hk [sg [s [Hl [Hi ->]]]]].
      apply ev_ok_call; try assumption.
      eapply Forall2_Forall_r; [exact HF|]. intros x z [Hz _]. exact Hz.
    - intros p col v i av el ai it _ Hv _ Hi _ Et.
      exact (ev_ok_sub_list _ _ _ _ _ Hv (ev_ok_eqb _ _ _ Et Hi)).
    - intros p col v i av kt vt ai it _ Hv _ Hi _ Et.
      exact (ev_ok_sub_map _ _ _ _ _ _ Hv (ev_ok_eqb _ _ _ Et Hi)).
    - intros p col o fname fpos ao fs ft idx Ho K Ea _. destruct (ty_ok_parts _ K) as [_ [W _]].
      exact (ev_ok_member _ _ _ _ _ _ _ Ho W Ea).
  Qed.
End Main.

(* the invariant behind C01 and C02: an accepted expression evaluated in a conforming environment yields a value of
   the inferred (deep) type, a documented failure, or the fuel fault *)
Theorem eval_invariant ops orc : forall fe G rho fuel fresh e a T f,
  (fe = builtin_fenv \/ fe = fenv_std) ->
  tenv_ok G = true -> env_ok G rho -> fresh_ok fe fresh ->
  check fe G fuel fresh e = COk (a, T) ->
  okM (vgood T) (eval ops orc fe rho f a).
Proof.
  intros fe G rho fuel fresh e a T f Hfe HG Hrho Hfr HC.
  assert (fenv_ok fe = true) as Hok by (destruct tables_ok; destruct Hfe; subst fe; assumption).
  exact (eval_ok ops orc fe G rho fuel fresh Hok (fun sg H => lib_sig_spec ops orc sg (table_sigs fe sg Hfe H))
           HG Hrho Hfr e a T HC f).
Qed.

Lemma preservation ops orc : forall fe G rho fuel fresh e a T f t v,
  (fe = builtin_fenv \/ fe = fenv_std) ->
  tenv_ok G = true -> env_ok G rho -> fresh_ok fe fresh ->
  check fe G fuel fresh e = COk (a, T) ->
  eval ops orc fe rho f a = (t, OVal v) ->
  has_vtype v T = true /\ fun_free v = true.
Proof.
  intros fe G rho fuel fresh e a T f t v Hfe HG Hrho Hfr HC HE.
  pose proof (eval_invariant ops orc fe G rho fuel fresh e a T f Hfe HG Hrho Hfr HC) as H.
  unfold okM in H. rewrite HE in H. exact H.
Qed.

Print Assumptions preservation.
Print Assumptions tables_ok.
