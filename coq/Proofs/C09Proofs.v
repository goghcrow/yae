(* C09 proofs: the lexer model (Model/Lexer.v) against the vocabulary of Model/LexSpec.v. *)
From Coq Require Import List Bool Arith NArith Lia Sorted.
From Yae Require Import Base.Sexp Gen.Generated Model.Lexer Model.LexSpec Proofs.ListFacts.
Import ListNotations.
Local Open Scope N_scope.

Lemma mem_op_In : forall k ops, mem_op k ops = true <-> In k ops.
Proof.
  intros k ops. unfold mem_op. rewrite existsb_exists. split.
  - intros [x [Hin He]]. apply list_eqb_eq in He. subst. exact Hin.
  - intro Hin. exists k. split; [exact Hin|apply list_eqb_refl].
Qed.

Lemma strip_prefix_app : forall p s r, strip_prefix p s = Some r -> s = (p ++ r)%list.
Proof.
  induction p as [|x p IH]; intros s r H; simpl in H.
  - inversion H. reflexivity.
  - destruct s as [|y t]; [discriminate|]. destruct (N.eqb x y) eqn:E; [|discriminate].
    apply N.eqb_eq in E. subst y. simpl. f_equal. apply IH. exact H.
Qed.

Lemma strip_prefix_app_intro : forall p r, strip_prefix p (p ++ r) = Some r.
Proof.
  induction p as [|x p IH]; intro r; simpl; [reflexivity|]. rewrite N.eqb_refl. apply IH.
Qed.

Lemma firstn_app_len : forall (p r : list N), firstn (len p) (p ++ r) = p.
Proof. induction p as [|x p IH]; intro r; simpl; [reflexivity|f_equal; apply IH]. Qed.

Lemma move_over_gen : forall l i ln col,
  move_over (mkCur i ln col) l = mkCur (i + N.of_nat (len l)) (ln + count_nl l) (since_nl l col).
Proof.
  induction l as [|x l IH]; intros i ln col.
  - unfold move_over, count_nl. simpl. f_equal; lia.
  - change (move_over (mkCur i ln col) (x :: l)) with (move_over (move (mkCur i ln col) x) l).
    unfold move, count_nl, len in *. cbn [c_idx c_line c_col since_nl filter List.length].
    rewrite (N.eqb_sym 10 x).
    destruct (N.eqb x 10) eqn:E; rewrite IH; cbn [List.length]; rewrite ?Nat2N.inj_succ; f_equal; lia.
Qed.

Lemma cursor_meaning : forall l,
  move_over (mkCur 0 0 0) l = mkCur (N.of_nat (len l)) (count_nl l) (since_nl l 0).
Proof. intro l. rewrite move_over_gen. f_equal. Qed.

Lemma move_over_idx : forall l c, c_idx (move_over c l) = c_idx c + N.of_nat (len l).
Proof. intros l [i ln col]. rewrite move_over_gen. reflexivity. Qed.

Lemma move_over_app : forall a b c, move_over c (a ++ b) = move_over (move_over c a) b.
Proof. intros. unfold move_over. apply fold_left_app. Qed.

Lemma first_match_app : forall a b s,
  first_match (a ++ b) s = match first_match a s with Some x => Some x | None => first_match b s end.
Proof.
  induction a as [|r a IH]; intros b s; simpl; [reflexivity|].
  destruct (rule_match r s); [reflexivity|apply IH].
Qed.

Lemma first_match_none : forall rs s, first_match rs s = None <-> (forall r, In r rs -> rule_match r s = None).
Proof.
  induction rs as [|x rs IH]; intros s; simpl; [split; [intros _ r []|reflexivity]|].
  destruct (rule_match x s) eqn:E.
  - split; [discriminate|]. intros H. rewrite (H x (or_introl eq_refl)) in E. discriminate E.
  - rewrite IH. split; [intros H r [<-|Hr]; auto|]. intros H r Hr. apply H. right. exact Hr.
Qed.

Lemma first_match_some : forall rs s k n, first_match rs s = Some (k, n) ->
  exists r, In r rs /\ rule_kind r = k /\ rule_match r s = Some n.
Proof.
  induction rs as [|x rs IH]; intros s k n H; simpl in *; [discriminate|].
  destruct (rule_match x s) eqn:E.
  - inversion H; subst. exists x. auto.
  - destruct (IH _ _ _ H) as [r [Hin Hr]]. exists r. auto.
Qed.

Lemma rule_kind_oper : forall k, rule_kind (oper_rule k) = k.
Proof. intro k. unfold oper_rule. destruct (is_ident_op k); reflexivity. Qed.

(* what the keyword rules and the rules for '.' and '?' share: the text [k], not followed by a rune of the class [p] *)
Definition match_guard (p : N -> bool) (k s : list N) : option nat :=
  match strip_prefix k s with
  | Some (c :: _) => if p c then None else Some (len k)
  | Some [] => Some (len k)
  | None => None
  end.

Lemma rule_match_keyword : forall k s, rule_match (RKeyword k) s = match_guard is_id_char k s.
Proof. reflexivity. Qed.

Lemma rule_match_prim : forall k s, rule_match (RPrim k) s = match_guard is_oper_char k s.
Proof. reflexivity. Qed.

Lemma match_guard_spec : forall p k s n, match_guard p k s = Some n ->
  n = len k /\ exists rest, s = (k ++ rest)%list /\ match rest with c :: _ => p c = false | [] => True end.
Proof.
  intros p k s n H. unfold match_guard in H. destruct (strip_prefix k s) as [r|] eqn:E; [|discriminate].
  apply strip_prefix_app in E. subst s.
  assert (n = len k) as -> by (destruct r as [|c r]; [|destruct (p c)]; congruence).
  split; [reflexivity|]. exists r. split; [reflexivity|].
  destruct r as [|c r]; [exact I|]. destruct (p c); [discriminate|reflexivity].
Qed.

Lemma rule_match_spec : forall r s n, rule_match r s = Some n ->
  match r with
  | RRegex _ _ => (0 < n)%nat
  | _ => n = len (rule_kind r) /\ exists rest, s = (rule_kind r ++ rest)%list
  end.
Proof.
  intros [k|k|k|k m] s n H.
  - unfold rule_match, match_str in H. destruct (strip_prefix k s) as [r|] eqn:E; [|discriminate].
    apply strip_prefix_app in E. injection H as <-. eauto.
  - rewrite rule_match_keyword in H. apply match_guard_spec in H as (-> & rest & -> & _). eauto.
  - rewrite rule_match_prim in H. apply match_guard_spec in H as (-> & rest & -> & _). eauto.
  - cbn [rule_match] in H. destruct (m s) as [[|n']|]; try discriminate. injection H as <-. lia.
Qed.

Lemma rule_match_pos : forall r s n, rule_kind r <> [] -> rule_match r s = Some n -> (0 < n)%nat.
Proof.
  intros r s n Hk H. apply rule_match_spec in H.
  destruct r as [k|k|k|k m]; [| | |exact H]; destruct H as [-> _]; simpl in Hk |- *;
    (destruct k; [congruence|apply Nat.lt_0_succ]).
Qed.

Definition fixed_rules : list rule := map (fun c => RStr [c]) fixed_punct.
Definition prim_rules : list rule := map RPrim (sort_ops byte_len [[46]; [63]]).
Definition kw_rules : list rule := [RKeyword K_TRUE; RKeyword K_FALSE].
Definition regex_rules : list rule :=
  [RRegex K_NUM m_float1; RRegex K_NUM m_float2; RRegex K_NUM m_bin; RRegex K_NUM m_hex; RRegex K_NUM m_oct;
   RRegex K_NUM m_dec; RRegex K_STR m_dqstr; RRegex K_STR m_raw; RRegex K_TIME m_time; RRegex K_SYM m_sym].
Definition static_rules : list rule := (fixed_rules ++ prim_rules ++ kw_rules ++ regex_rules)%list.

Lemma lexicon_parts : forall ops,
  lexicon ops =
  (fixed_rules ++ prim_rules ++ map oper_rule (sort_ops byte_len ops) ++ kw_rules ++ regex_rules)%list.
Proof. reflexivity. Qed.

Lemma In_lexicon : forall ops r, In r (lexicon ops) ->
  In r static_rules \/ exists k, In k ops /\ r = oper_rule k.
Proof.
  intros ops r H. rewrite lexicon_parts in H. unfold static_rules. rewrite !in_app_iff in *.
  destruct H as [H|[H|[H|H]]]; [tauto|tauto| |tauto].
  right. apply in_map_iff in H. destruct H as [k [<- Hk]]. exists k. split; [|reflexivity].
  apply sort_ops_In in Hk. exact Hk.
Qed.

(* three facts about the closed list of rules, so that it is gone through once *)
Lemma static_rule : forall r, In r static_rules ->
  rule_kind r <> [] /\
  (is_ident_op (rule_kind r) = true -> r = RKeyword (rule_kind r)) /\
  (rule_kind r = [46] \/ rule_kind r = [63] -> r = RPrim (rule_kind r)).
Proof. apply Forall_forall. repeat constructor; intuition discriminate. Qed.

Lemma op_wf_nonempty : forall k, op_wf k = true -> k <> [].
Proof. intros k H ->. discriminate H. Qed.

Lemma ops_wf_In : forall ops k, ops_wf ops = true -> In k ops -> op_wf k = true.
Proof. intros ops k H Hin. unfold ops_wf in H. rewrite forallb_forall in H. apply H. exact Hin. Qed.

Lemma lexicon_pos : forall ops s k n,
  ops_wf ops = true -> first_match (lexicon ops) s = Some (k, n) -> (0 < n)%nat.
Proof.
  intros ops s k n Hwf H. apply first_match_some in H. destruct H as (r & Hin & _ & Hm).
  apply (rule_match_pos r s); [|exact Hm]. apply In_lexicon in Hin. destruct Hin as [Hin|(k0 & Hk0 & ->)].
  - apply (static_rule r Hin).
  - rewrite rule_kind_oper. apply op_wf_nonempty. exact (ops_wf_In _ _ Hwf Hk0).
Qed.

Lemma ident_kind_whole_word : forall ops s k n,
  first_match (lexicon ops) s = Some (k, n) -> is_ident_op k = true ->
  n = len k /\ match skipn n s with c :: _ => is_id_char c = false | [] => True end.
Proof.
  intros ops s k n Hfm Hid.
  apply first_match_some in Hfm. destruct Hfm as (r & Hin & <- & Hm).
  assert (Hr : r = RKeyword (rule_kind r)).
  { apply In_lexicon in Hin. destruct Hin as [Hin|(k & _ & ->)].
    - apply (static_rule r Hin). exact Hid.
    - rewrite rule_kind_oper in *. unfold oper_rule. rewrite Hid. reflexivity. }
  rewrite Hr, rule_match_keyword in Hm. apply match_guard_spec in Hm as (-> & rest & -> & Hm).
  rewrite skipn_len_app. exact (conj eq_refl Hm).
Qed.

Lemma whole_word : forall ops s k n,
  ops_wf ops = true ->
  first_match (lexicon ops) s = Some (k, n) ->
  is_ident_op k = true -> (mem_op k ops = true \/ k = K_TRUE \/ k = K_FALSE) ->
  n = len k /\ match skipn n s with c :: _ => is_id_char c = false | [] => True end.
Proof. intros ops s k n _ Hfm Hid _. exact (ident_kind_whole_word ops s k n Hfm Hid). Qed.

Lemma prim_kind_single : forall ops s k n,
  mem_op [46] ops = false -> mem_op [63] ops = false ->
  first_match (lexicon ops) s = Some (k, n) -> (k = [46] \/ k = [63]) ->
  n = 1%nat /\ match skipn 1 s with c :: _ => is_oper_char c = false | [] => True end.
Proof.
  intros ops s k n Hdot Hq Hfm Hk.
  apply first_match_some in Hfm. destruct Hfm as (r & Hin & <- & Hm).
  apply In_lexicon in Hin. destruct Hin as [Hin|(k & Hin & ->)].
  - destruct (static_rule r Hin) as (_ & _ & Hr).
    rewrite (Hr Hk), rule_match_prim in Hm. apply match_guard_spec in Hm as (-> & rest & -> & Hm).
    destruct Hk as [-> | ->]; exact (conj eq_refl Hm).
  - rewrite rule_kind_oper in Hk. apply mem_op_In in Hin. destruct Hk as [-> | ->]; congruence.
Qed.

Lemma prim_not_split : forall ops s k n,
  ops_wf ops = true -> mem_op [46] ops = false -> mem_op [63] ops = false ->
  first_match (lexicon ops) s = Some (k, n) -> (k = [46] \/ k = [63]) ->
  n = 1%nat /\ match skipn 1 s with c :: _ => is_oper_char c = false | [] => True end.
Proof. intros ops s k n _. apply prim_kind_single. Qed.

Lemma skip_space_spec : forall s c c1 s1, skip_space c s = (c1, s1) ->
  exists ws, s = (ws ++ s1)%list /\ forallb is_space ws = true /\ c1 = move_over c ws /\
             match s1 with x :: _ => is_space x = false | [] => True end.
Proof.
  induction s as [|r t IH]; intros c c1 s1 H; cbn [skip_space] in H.
  - inversion H; subst. exists []. repeat split.
  - destruct (is_space r) eqn:E.
    + destruct (IH _ _ _ H) as [ws [H1 [H2 [H3 H4]]]]. exists (r :: ws). subst t. repeat split; try assumption.
      simpl. rewrite E, H2. reflexivity.
    + inversion H; subst. exists []. repeat split. exact E.
Qed.

Lemma take_move_spec : forall n c s, take_move n c s = (firstn n s, move_over c (firstn n s), skipn n s).
Proof.
  induction n as [|n IH]; intros c [|r t]; try reflexivity.
  cbn [take_move firstn skipn]. rewrite IH. reflexivity.
Qed.

(* both outcomes in one statement, so that there is one induction on the fuel; it never runs out because every token
   consumes at least one rune *)
Lemma lex_loop_spec : forall rs, (forall s k n, first_match rs s = Some (k, n) -> (0 < n)%nat) ->
  forall fuel c s, (List.length s < fuel)%nat ->
  match lex_loop fuel rs c s with
  | Some ts => tokens_ok c s ts
  | None => exists pre rest, s = (pre ++ rest)%list /\ rest <> [] /\
              match rest with c :: _ => is_space c = false | [] => False end /\ first_match rs rest = None
  end.
Proof.
  intros rs Hrs. induction fuel as [|f IH]; intros c s Hlen; [lia|]. cbn [lex_loop].
  destruct (skip_space c s) as [c1 s1] eqn:Hss.
  apply skip_space_spec in Hss. destruct Hss as (ws & Hs & Hws & Hc1 & Hhd).
  destruct s1 as [|x s1'].
  { apply tok_nil. subst s. rewrite app_nil_r. exact Hws. }
  remember (x :: s1') as s1 eqn:Es1.
  destruct (first_match rs s1) as [[k n]|] eqn:Hfm.
  - apply Hrs in Hfm. rewrite take_move_spec.
    assert (Hlx : firstn n s1 <> []) by (subst s1; destruct n; [lia|discriminate]).
    assert (Hrest : (List.length (skipn n s1) < f)%nat).
    { rewrite skipn_length. subst s s1. rewrite app_length in Hlen. cbn [List.length] in *. lia. }
    specialize (IH (move_over c1 (firstn n s1)) (skipn n s1) Hrest).
    destruct (lex_loop f rs (move_over c1 (firstn n s1)) (skipn n s1)) as [ts|].
    + apply tok_cons with (ws := ws) (rest := skipn n s1); cbn [t_lexeme t_idx t_line t_col t_end];
        try (subst c1; reflexivity).
      * rewrite firstn_skipn. exact Hs.
      * exact Hws.
      * exact Hlx.
      * rewrite move_over_idx. reflexivity.
      * rewrite move_over_app, <- Hc1. exact IH.
    + destruct IH as (pre & rest & Hsk & Hne & Hsp & Hno).
      exists (ws ++ firstn n s1 ++ pre)%list, rest. repeat split; try assumption.
      rewrite <- !app_assoc, <- Hsk, firstn_skipn. exact Hs.
  - exists ws, s1. subst s1. repeat split; try assumption. discriminate.
Qed.

Lemma lex_spec : forall ops src, ops_wf ops = true ->
  match lex ops src with
  | Some ts => tokens_ok (mkCur 0 0 0) src ts
  | None => exists pre rest, src = (pre ++ rest)%list /\ rest <> [] /\
              match rest with c :: _ => is_space c = false | [] => False end /\
              first_match (lexicon ops) rest = None
  end.
Proof.
  intros ops src Hwf. apply lex_loop_spec; [|apply Nat.lt_succ_diag_r].
  intros s k n. apply lexicon_pos. exact Hwf.
Qed.

Lemma tokens_ok_len : forall c s ts, tokens_ok c s ts -> (len ts <= len s)%nat.
Proof.
  intros c s ts H. induction H as [c s Hs|c s ws t rest ts Hs Hws Hne Hi Hl Hc He Hr IH].
  - unfold len. simpl. lia.
  - subst s. unfold len in *. cbn [List.length]. rewrite !app_length.
    destruct (t_lexeme t) as [|x lx]; [contradiction Hne; reflexivity|]. cbn [List.length]. lia.
Qed.

Lemma partition : forall ops src ts,
  ops_wf ops = true -> lex ops src = Some ts -> tokens_ok (mkCur 0 0 0) src ts.
Proof. intros ops src ts Hwf H. pose proof (lex_spec ops src Hwf) as L. rewrite H in L. exact L. Qed.

Lemma total : forall ops src,
  ops_wf ops = true -> lex ops src = None ->
  exists pre rest, src = (pre ++ rest)%list /\ rest <> [] /\
    match rest with c :: _ => is_space c = false | [] => False end /\ first_match (lexicon ops) rest = None.
Proof. intros ops src Hwf H. pose proof (lex_spec ops src Hwf) as L. rewrite H in L. exact L. Qed.

Definition ge_key {X} (key : X -> nat) (a b : X) : Prop := Nat.leb (key b) (key a) = true.

Lemma sort_sorted : forall X (key : X -> nat) l, StronglySorted (ge_key key) (sort_ops key l).
Proof.
  intros X key l. rewrite sort_ops_isort. apply (isort_sorted key (fun a b => Nat.leb b a)); intros a b.
  - destruct (Nat.leb_spec b a); [left; reflexivity|right; apply Nat.leb_le; lia].
  - intros c Hab Hbc. apply Nat.leb_le in Hab, Hbc. apply Nat.leb_le. lia.
Qed.

(* Operators are tried longest first (oper.Sort), so when one of them is chosen, every longer one has already been
   tried and has failed. *)
Lemma first_match_sorted : forall ks s k n k',
  StronglySorted (ge_key byte_len) ks ->
  first_match (map oper_rule ks) s = Some (k, n) -> In k' ks -> (byte_len k < byte_len k')%nat ->
  rule_match (oper_rule k') s = None.
Proof.
  induction ks as [|y ks IH]; intros s k n k' Hs Hfm Hin Hlt; [contradiction|].
  inversion Hs as [|? ? Hs' Hall]; subst. cbn [map first_match] in Hfm.
  destruct (rule_match (oper_rule y) s) as [n'|] eqn:E.
  - exfalso. rewrite rule_kind_oper in Hfm. inversion Hfm; subst. destruct Hin as [->|Hin]; [lia|].
    rewrite Forall_forall in Hall. specialize (Hall _ Hin). apply Nat.leb_le in Hall. lia.
  - destruct Hin as [<-|Hin]; [exact E|]. eapply IH; eauto.
Qed.

Lemma no_punct_start_In : forall ops c r, no_punct_start ops = true -> In (c :: r) ops ->
  existsb (N.eqb c) fixed_punct = false.
Proof.
  intros ops c r H Hin. unfold no_punct_start in H. rewrite forallb_forall in H. specialize (H _ Hin).
  cbv beta iota in H. apply negb_true_iff in H. exact H.
Qed.

Lemma sym_op_chars : forall ops k, ops_wf ops = true -> In k ops -> is_ident_op k = false ->
  forallb is_oper_char k = true.
Proof.
  intros ops k Hwf Hin Hid. pose proof (ops_wf_In _ _ Hwf Hin) as H. unfold op_wf in H.
  rewrite Hid in H. apply andb_true_iff in H. destruct H as [_ H]. exact H.
Qed.

Lemma guarded_rune_blocks : forall x rest k' r',
  match rest with c :: _ => is_oper_char c = false | [] => True end ->
  (x :: rest = k' ++ r')%list -> forallb is_oper_char k' = true -> ~ (byte_len [x] < byte_len k')%nat.
Proof.
  intros x rest k' r' Hm Hs Hoc Hlt. unfold byte_len in Hlt. destruct k' as [|a [|b k'']]; cbn [fold_right] in Hlt.
  - lia.
  - injection Hs as -> _. lia.
  - injection Hs as _ ->. cbn [forallb] in Hoc. rewrite Hm, andb_false_r in Hoc. discriminate Hoc.
Qed.

Lemma longest : forall ops s k n k',
  ops_wf ops = true -> no_punct_start ops = true ->
  first_match (lexicon ops) s = Some (k, n) ->
  mem_op k ops = true -> is_ident_op k = false ->
  mem_op k' ops = true -> is_ident_op k' = false -> (byte_len k < byte_len k')%nat ->
  strip_prefix k' s = None.
Proof.
  intros ops s k n k' Hwf Hnp Hfm Hk Hid Hk' Hid' Hlt.
  apply mem_op_In in Hk. apply mem_op_In in Hk'.
  assert (Hks : In k' (sort_ops byte_len ops)) by (apply sort_ops_In; exact Hk').
  assert (Hgoal : rule_match (oper_rule k') s = None -> strip_prefix k' s = None).
  { unfold oper_rule. rewrite Hid'. simpl. unfold match_str.
    destruct (strip_prefix k' s); [discriminate|reflexivity]. }
  rewrite lexicon_parts in Hfm. rewrite !first_match_app in Hfm.
  destruct (first_match fixed_rules s) as [p|] eqn:E1.
  { (* an operator does not begin with a punctuation rune *)
    exfalso. inversion Hfm; subst p. apply first_match_some in E1. destruct E1 as (r & Hin & Hrk & _).
    apply in_map_iff in Hin. destruct Hin as (c & <- & Hc). simpl in Hrk. subst k.
    apply (no_punct_start_In _ _ _ Hnp) in Hk.
    assert (existsb (N.eqb c) fixed_punct = true); [|congruence].
    apply existsb_exists. exists c. split; [exact Hc|apply N.eqb_refl]. }
  destruct (first_match prim_rules s) as [p|] eqn:E2.
  { (* k is '.' or '?' and is not followed by an operator character, but the second rune of k' is one *)
    inversion Hfm; subst p. apply first_match_some in E2. destruct E2 as (r & Hin & <- & Hm).
    destruct (strip_prefix k' s) as [r'|] eqn:Esp; [exfalso|reflexivity].
    apply strip_prefix_app in Esp.
    apply in_map_iff in Hin. destruct Hin as (k & <- & Hin). apply sort_ops_In in Hin.
    rewrite rule_match_prim in Hm. apply match_guard_spec in Hm as (_ & rest & -> & Hm).
    destruct Hin as [<-|[<-|[]]];
      exact (guarded_rune_blocks _ rest k' r' Hm Esp (sym_op_chars _ _ Hwf Hk' Hid') Hlt). }
  destruct (first_match (map oper_rule (sort_ops byte_len ops)) s) as [p|] eqn:E3.
  { (* k is the first operator in the sorted table that matches, and k' stands before it *)
    inversion Hfm; subst p. apply Hgoal.
    eapply first_match_sorted; [apply sort_sorted|exact E3|exact Hks|exact Hlt]. }
  apply Hgoal, (proj1 (first_match_none _ _) E3), in_map, Hks.
Qed.

Definition starts_outside (p : N -> bool) (r : rule) : bool :=
  match r with
  | RRegex _ _ => false
  | RStr k | RKeyword k | RPrim k => match k with a :: _ => negb (p a) | [] => false end
  end.

Lemma starts_outside_fail : forall p r c t, p c = true -> starts_outside p r = true -> rule_match r (c :: t) = None.
Proof.
  intros p r c t Hp H. destruct (rule_match r (c :: t)) as [n|] eqn:E; [exfalso|reflexivity].
  apply rule_match_spec in E.
  destruct r as [[|a k]|[|a k]|[|a k]|k m]; try discriminate H;
    destruct E as (_ & rest & E); injection E as <- _; simpl in H; rewrite Hp in H; discriminate H.
Qed.

Lemma heads_fail : forall p rs c t, p c = true -> forallb (starts_outside p) rs = true -> first_match rs (c :: t) = None.
Proof.
  intros p rs c t Hp H. apply first_match_none. intros r Hr. rewrite forallb_forall in H.
  eapply starts_outside_fail; eauto.
Qed.

(* [op_wf]: an operator begins with an identifier start or with an operator character *)
Lemma ops_fail : forall ops c t, ops_wf ops = true -> is_id_start c = false -> is_oper_char c = false ->
  first_match (map oper_rule (sort_ops byte_len ops)) (c :: t) = None.
Proof.
  intros ops c t Hwf Hid Hoc. apply (heads_fail (N.eqb c)); [apply N.eqb_refl|].
  apply forallb_forall. intros r Hr. apply in_map_iff in Hr. destruct Hr as (k & <- & Hk).
  apply sort_ops_In in Hk. apply (ops_wf_In _ _ Hwf) in Hk.
  assert (Hh : match k with a :: _ => negb (N.eqb c a) | [] => false end = true).
  { unfold op_wf in Hk. destruct k as [|a k]; [discriminate Hk|]. cbn [list_eqb negb andb is_ident_op forallb] in Hk.
    destruct (N.eqb_spec c a) as [<-|]; [|reflexivity]. rewrite Hid, Hoc in Hk. discriminate Hk. }
  unfold oper_rule. destruct (is_ident_op k); exact Hh.
Qed.

Lemma disjoint_not_oper : forall (p : N -> bool) c,
  forallb (fun o => negb (p o)) oper_chars = true -> p c = true -> is_oper_char c = false.
Proof.
  intros p c H Hp. unfold is_oper_char. destruct (existsb (N.eqb c) oper_chars) eqn:E; [|reflexivity].
  apply existsb_exists in E. destruct E as [o [Ho E]]. apply N.eqb_eq in E. subst o.
  rewrite forallb_forall in H. specialize (H _ Ho). rewrite Hp in H. discriminate.
Qed.

(* for a given class [p] of first runes the two [forallb] conditions are closed, and [reflexivity] decides them where
   the lemma is used *)
Lemma front_fail : forall ops p c t,
  ops_wf ops = true -> p c = true ->
  forallb (starts_outside p) (fixed_rules ++ prim_rules ++ kw_rules) = true ->
  forallb (fun o => negb (p o)) oper_chars = true ->
  is_id_start c = false ->
  first_match (lexicon ops) (c :: t) = first_match regex_rules (c :: t).
Proof.
  intros ops p c t Hwf Hp Hh Hoc Hid.
  rewrite !forallb_app in Hh. apply andb_true_iff in Hh. destruct Hh as [H1 Hh].
  apply andb_true_iff in Hh. destruct Hh as [H2 H3].
  rewrite lexicon_parts, !first_match_app.
  rewrite (heads_fail p _ c t Hp H1), (heads_fail p _ c t Hp H2), (heads_fail p _ c t Hp H3).
  rewrite (ops_fail ops c t Hwf Hid (disjoint_not_oper p c Hoc Hp)). reflexivity.
Qed.

Lemma span_app : forall p a b, forallb p a = true ->
  match b with x :: _ => p x = false | [] => True end -> span p (a ++ b) = (len a, b).
Proof.
  induction a as [|x a IH]; intros b Ha Hb.
  - cbn [app]. destruct b as [|y b]; [reflexivity|]. cbn [span]. rewrite Hb. reflexivity.
  - cbn [forallb] in Ha. apply andb_true_iff in Ha. destruct Ha as [Hx Ha].
    cbn [app span]. rewrite Hx. rewrite (IH _ Ha Hb). reflexivity.
Qed.

Lemma digit_not_id_start : forall c, is_digit c = true -> is_id_start c = false.
Proof.
  intros c H. unfold is_digit in H. apply andb_true_iff in H. destruct H as [H1 H2]. apply N.leb_le in H1, H2.
  unfold is_id_start, is_letter, is_ascii_alpha.
  rewrite (proj2 (N.ltb_lt c 128)), (proj2 (N.leb_gt 97 c)), (proj2 (N.leb_gt 65 c)), (proj2 (N.eqb_neq c 95)) by lia.
  reflexivity.
Qed.

Lemma dec_int_shape : forall l, dec_int l = true ->
  exists c r, l = c :: r /\ is_digit c = true /\ forallb is_digit r = true /\ (N.eqb c 48 = true -> r = []).
Proof.
  intros [|c [|x r]] H; [discriminate|exists c, []; repeat split; exact H|].
  cbn [dec_int] in H. apply andb_true_iff in H. destruct H as [Hc Hr]. exists c, (x :: r).
  apply andb_true_iff in Hc. destruct Hc as [H1 H2]. apply N.leb_le in H1. repeat split; [|exact Hr|].
  - unfold is_digit. rewrite H2, andb_true_r. apply N.leb_le. lia.
  - intro E. apply N.eqb_eq in E. lia.
Qed.

Lemma radix_head : forall letter f g c t, N.eqb c 48 = false -> m_radix letter f g (c :: t) = None.
Proof. intros letter f g c [|x [|c' r]] H; cbn [m_radix]; rewrite ?H; reflexivity. Qed.

(* the runes that would continue a number literal: a digit, '.', e, E, b, x, o *)
Definition ends_number (rest : list N) : Prop :=
  match rest with
  | c :: _ => is_digit c = false /\ c <> 46 /\ c <> 101 /\ c <> 69 /\ c <> 98 /\ c <> 120 /\ c <> 111
  | [] => True
  end.

Section DecInt.
  Variables (c : N) (r rest : list N).
  Hypothesis Hc : is_digit c = true.
  Hypothesis Hr : forallb is_digit r = true.
  Hypothesis Hz : N.eqb c 48 = true -> r = [].
  Hypothesis Hrest : ends_number rest.

  Lemma dec_m_int : m_int (c :: r ++ rest) = Some (S (len r), rest).
  Proof.
    cbn [m_int]. destruct (N.eqb c 48) eqn:E0; [rewrite (Hz eq_refl); reflexivity|].
    assert (Hd : N.leb 49 c && N.leb c 57 = true).
    { unfold is_digit in Hc. apply andb_true_iff in Hc. destruct Hc as [H1 H2]. apply N.leb_le in H1.
      apply N.eqb_neq in E0. rewrite H2, andb_true_r. apply N.leb_le. lia. }
    rewrite Hd, (span_app is_digit r rest Hr) by (destruct rest; [exact I|apply Hrest]). reflexivity.
  Qed.

  Lemma rest_m_frac : m_frac rest = None.
  Proof.
    destruct rest as [|x t]; [reflexivity|]. destruct Hrest as [_ [H _]].
    cbn [m_frac]. apply N.eqb_neq in H. rewrite H. reflexivity.
  Qed.

  Lemma rest_m_exp : m_exp rest = None.
  Proof.
    destruct rest as [|x t]; [reflexivity|]. destruct Hrest as [_ [_ [H1 [H2 _]]]].
    cbn [m_exp]. apply N.eqb_neq in H1. apply N.eqb_neq in H2. rewrite H1, H2. reflexivity.
  Qed.

  Lemma dec_float1 : m_float1 (c :: r ++ rest) = None.
  Proof. unfold m_float1. rewrite dec_m_int, rest_m_frac. reflexivity. Qed.

  Lemma dec_float2 : m_float2 (c :: r ++ rest) = None.
  Proof. unfold m_float2. rewrite dec_m_int, rest_m_frac, rest_m_exp. reflexivity. Qed.

  Lemma dec_radix : forall letter f g,
    match rest with x :: _ => x <> letter | [] => True end -> m_radix letter f g (c :: r ++ rest) = None.
  Proof.
    intros letter f g Hle. destruct (N.eqb c 48) eqn:E0; [|apply radix_head, E0].
    rewrite (Hz eq_refl). cbn [app]. destruct rest as [|y [|c' r']]; try reflexivity.
    cbn [m_radix]. apply N.eqb_neq in Hle. rewrite Hle, andb_false_r. reflexivity.
  Qed.

  Lemma dec_m_dec : m_dec (c :: r ++ rest) = Some (S (len r)).
  Proof. unfold m_dec. rewrite dec_m_int. reflexivity. Qed.
End DecInt.

Lemma literal_int : forall ops l rest,
  ops_wf ops = true -> dec_int l = true ->
  ends_number rest ->
  first_match (lexicon ops) (l ++ rest) = Some (K_NUM, len l).
Proof.
  intros ops l rest Hwf Hl Hrest.
  destruct (dec_int_shape l Hl) as (c & r & -> & Hc & Hr & Hz). cbn [app].
  rewrite (front_fail ops is_digit c _ Hwf Hc); [|reflexivity..|apply digit_not_id_start; exact Hc].
  cbn [regex_rules first_match rule_match rule_kind]. unfold m_bin, m_hex, m_oct.
  rewrite (dec_float1 c r rest Hc Hr Hz Hrest), (dec_float2 c r rest Hc Hr Hz Hrest),
    (dec_m_dec c r rest Hc Hr Hz Hrest), !(dec_radix c r rest Hz) by (destruct rest; [exact I|apply Hrest]).
  reflexivity.
Qed.

Lemma m_delim_match : forall o stop cl body rest,
  forallb (fun x => negb (stop x)) body = true -> stop cl = true ->
  m_delim o stop cl (o :: (body ++ [cl]) ++ rest) = Some (len (o :: body ++ [cl])).
Proof.
  intros o stop cl body rest Hb Hcl. cbn [m_delim]. rewrite N.eqb_refl, <- app_assoc.
  rewrite (span_app (fun x => negb (stop x)) body ([cl] ++ rest) Hb) by (cbn; rewrite Hcl; reflexivity).
  cbn [app]. rewrite N.eqb_refl. unfold len. cbn [List.length]. rewrite app_length. f_equal. cbn [List.length]. lia.
Qed.

Lemma literal_raw : forall ops l rest,
  ops_wf ops = true -> raw_string l -> first_match (lexicon ops) (l ++ rest) = Some (K_STR, len l).
Proof.
  intros ops l rest Hwf [body [-> Hb]]. cbn [app].
  rewrite (front_fail ops (N.eqb 96) 96 _ Hwf); [|reflexivity..].
  cbn [regex_rules first_match rule_match rule_kind]. unfold m_bin, m_hex, m_oct, m_raw.
  rewrite !radix_head by reflexivity. rewrite m_delim_match; [reflexivity| |reflexivity].
  rewrite <- Hb. apply forallb_ext. intro x. rewrite N.eqb_sym. reflexivity.
Qed.

Lemma literal_time : forall ops l rest,
  ops_wf ops = true -> time_lit l -> first_match (lexicon ops) (l ++ rest) = Some (K_TIME, len l).
Proof.
  intros ops l rest Hwf [body [-> Hb]]. cbn [app].
  rewrite (front_fail ops (N.eqb 39) 39 _ Hwf); [|reflexivity..].
  cbn [regex_rules first_match rule_match rule_kind]. unfold m_bin, m_hex, m_oct, m_time.
  rewrite !radix_head by reflexivity. rewrite m_delim_match; [reflexivity|exact Hb|reflexivity].
Qed.

Print Assumptions partition.
Print Assumptions cursor_meaning.
Print Assumptions longest.
Print Assumptions whole_word.
Print Assumptions prim_not_split.
Print Assumptions literal_int.
Print Assumptions literal_raw.
Print Assumptions literal_time.
Print Assumptions total.
