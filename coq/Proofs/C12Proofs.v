(* C12 proofs: the public API never lets a panic escape (given the recover placement read from the source), and the front end
   terminates without exhausting its fuel. *)
From Coq Require Import List String.
From Yae Require Import Model.Lexer Model.LexSpec Model.Pratt Model.PrattSpec Model.VM Model.Api Proofs.C08Proofs Proofs.C09Proofs.
Import ListNotations.
Local Open Scope string_scope.

Lemma guarded_no_escape : forall X site (r : option X), has_site site = true -> guarded site r <> Escaped.
Proof. intros X site r Hs. unfold guarded. destruct r as [x|]; [discriminate|]. rewrite Hs. discriminate. Qed.

Lemma site_compile : has_site "facade.go:Compile defers e.backStrace" = true.
Proof. reflexivity. Qed.

Lemma site_callable : has_site "facade.go:makeCallable.func defers e.backStrace" = true.
Proof. reflexivity. Qed.

Lemma compile_no_escape : forall ops orc fe te src, api_compile ops orc fe te src <> Escaped.
Proof. intros ops orc fe te src. unfold api_compile. apply guarded_no_escape, site_compile. Qed.

Lemma call_no_escape : forall ops orc te code pool rho, fst (api_call ops orc te code pool rho) <> Escaped.
Proof.
  intros ops orc te code pool rho. unfold api_call.
  (* [case]: [destruct] abstracts the goal over the term and checks the result again, which takes over a second
     with the run of the machine in it *)
  case (env_check te rho); [|discriminate].
  case (vm_run ops orc rho pool None 5000 code); intros t o. cbn [fst].
  apply guarded_no_escape, site_callable.
Qed.

Lemma no_escape : forall ops orc fe te rho src code pool,
  api_compile ops orc fe te src <> Escaped /\
  fst (api_call ops orc te code pool rho) <> Escaped /\
  api_eval ops orc fe te rho src <> Escaped.
Proof.
  intros ops orc fe te rho src code pool. split; [apply compile_no_escape|]. split; [apply call_no_escape|].
  unfold api_eval. pose proof (compile_no_escape ops orc fe te src) as Hc.
  destruct (api_compile ops orc fe te src) as [[[a code'] pool']| |].
  - apply call_no_escape.
  - discriminate.
  - exfalso. apply Hc. reflexivity.
Qed.

Lemma callable_recover_needed : forall X (r : option X),
  r = None -> (if existsb (String.eqb "facade.go:makeCallable.func defers e.backStrace") [] then @AErr X else Escaped) = Escaped.
Proof. intros X r _. reflexivity. Qed.

(* [parse_source] turns every failure of the lexer into [PErr], so only the parser's fuel is in question and the
   well-formedness of the operators plays no part *)
Lemma front_end_total : forall ops src,
  table_ok ops = true -> ops_wf (map o_kind ops) = true -> parse_source ops src <> PFuel.
Proof.
  intros ops src Ht _. unfold parse_source.
  destruct (lex (map o_kind ops) src) as [ts|]; [|discriminate].
  apply no_fuel_table_ok. exact Ht.
Qed.

Lemma tokens_bounded : forall ops src ts, ops_wf ops = true -> lex ops src = Some ts -> (len ts <= len src)%nat.
Proof.
  intros ops src ts Hwf H. eapply tokens_ok_len. eapply partition; eassumption.
Qed.

Print Assumptions no_escape.
Print Assumptions callable_recover_needed.
Print Assumptions front_end_total.
Print Assumptions tokens_bounded.
