(* Facts about lists, the option monad of Base/Sexp, keyed lists ([assoc], [index_of], Section Lookup for any lookup
   with a decidable key), decimal numerals and [eventually] (from some amount of fuel on), whoever uses them; and the
   loops [nodup_by], [forallb2], [allb_get] and [isort], of which the list loops of the model are instances. *)
From Coq Require Import List String Bool NArith Lia Permutation Sorting DecimalString DecimalN DecimalPos.
From Yae Require Import Base.Sexp Model.Ty Model.Lexer.
Import ListNotations.
Local Open Scope list_scope.

(* a [fix] on the list, so that the induction principle of a type nested in [list] can call itself through it *)
Definition Forall_all {X} (P : X -> Prop) (f : forall x, P x) : forall l, Forall P l :=
  fix go l := match l with [] => Forall_nil P | x :: r => Forall_cons x (f x) (go r) end.

Lemma map_fst_combine {X Y} (l1 : list X) : forall (l2 : list Y),
  List.length l1 = List.length l2 -> map fst (combine l1 l2) = l1.
Proof.
  induction l1 as [|a r IH]; intros [|b s] H; simpl in *; try discriminate; try reflexivity.
  f_equal. apply IH. lia.
Qed.

Lemma last_app_ne {X} (xs ys : list X) d : ys <> [] -> last (xs ++ ys) d = last ys d.
Proof.
  intros H. induction xs as [|x xs IH]; [reflexivity|].
  cbn [app]. destruct (xs ++ ys) eqn:E.
  - destruct xs; [cbn in E; congruence | discriminate].
  - cbn [last]. exact IH.
Qed.

Lemma last_app_cons {X} (a b : list X) x d : last (a ++ x :: b) d = last (x :: b) d.
Proof. apply last_app_ne. discriminate. Qed.

Definition sfx {X} (r l : list X) : Prop := exists u, l = u ++ r.

Lemma sfx_refl {X} (l : list X) : sfx l l.
Proof. exists []. reflexivity. Qed.

Lemma sfx_trans {X} (a b c : list X) : sfx a b -> sfx b c -> sfx a c.
Proof. intros [u ->] [v ->]. exists (v ++ u). rewrite app_assoc. reflexivity. Qed.

Lemma sfx_tl {X} (l : list X) : sfx (tl l) l.
Proof. destruct l as [|x r]; [exists []; reflexivity | exists [x]; reflexivity]. Qed.

Lemma sfx_len {X} (r l : list X) : sfx r l -> (len r <= len l)%nat.
Proof. intros [u ->]. unfold len. rewrite app_length. lia. Qed.

Lemma rev_cons_app {X} (x : X) acc l : rev (x :: acc) ++ l = rev acc ++ x :: l.
Proof. cbn [rev]. rewrite <- app_assoc. reflexivity. Qed.

Lemma skipn_len_app {X} (a b : list X) : skipn (List.length a) (a ++ b) = b.
Proof. induction a; [reflexivity|assumption]. Qed.

Lemma in_firstn {X} n (l : list X) x : In x (firstn n l) -> In x l.
Proof. intros H. rewrite <- (firstn_skipn n l). apply in_or_app. left. exact H. Qed.

Lemma in_skipn {X} n (l : list X) x : In x (skipn n l) -> In x l.
Proof. intros H. rewrite <- (firstn_skipn n l). apply in_or_app. right. exact H. Qed.

Lemma map_id_in {X} (g : X -> X) l : (forall x, In x l -> g x = x) -> map g l = l.
Proof. intros H. rewrite <- (map_id l) at 2. apply map_ext_in. exact H. Qed.

Lemma existsb_flat_map {X Y} (p : X -> bool) (g : X -> list Y) (y : Y) l :
  Forall (fun x => p x = true <-> In y (g x)) l -> (existsb p l = true <-> In y (flat_map g l)).
Proof.
  induction 1 as [|x r Hx _ IH]; simpl; [split; [discriminate|contradiction]|].
  rewrite orb_true_iff, in_app_iff, Hx, IH. reflexivity.
Qed.

Lemma flat_map_nil {X Y} (g : X -> list Y) (p : X -> bool) l :
  Forall (fun x => p x = true -> g x = []) l -> forallb p l = true -> flat_map g l = [].
Proof.
  induction 1 as [|a r Ha _ IH]; simpl; [reflexivity|]. intros Hp. apply andb_true_iff in Hp.
  rewrite (Ha (proj1 Hp)). exact (IH (proj2 Hp)).
Qed.

Lemma skipn_add {X} b : forall (l : list X) a, skipn a (skipn b l) = skipn (b + a) l.
Proof. induction b as [|b IH]; intros [|x l] a; cbn; rewrite ?skipn_nil; auto. Qed.

Lemma skipn_more {X} (l : list X) n a b : skipn n l = a ++ b -> skipn (n + List.length a) l = b.
Proof. intros H. rewrite <- skipn_add, H. apply skipn_len_app. Qed.

Lemma Forall_firstn_skipn {X} (P : X -> Prop) n l : Forall P l -> Forall P (firstn n l) /\ Forall P (skipn n l).
Proof. intros H. apply Forall_app. rewrite firstn_skipn. exact H. Qed.

Lemma repeat_snoc_app {X} (x : X) j l : repeat x j ++ x :: l = repeat x (S j) ++ l.
Proof. cbn [repeat]. rewrite repeat_cons, <- app_assoc. reflexivity. Qed.

Lemma In_le_sum {X} (g : X -> nat) l x : In x l -> (g x <= fold_right (fun y a => g y + a) 0 l)%nat.
Proof.
  induction l as [|a r IH]; simpl; intros Hin; [contradiction|].
  destruct Hin as [E|Hin]; [subst; lia|]. specialize (IH Hin). lia.
Qed.

Lemma firstn_len_app {X} (a b : list X) : firstn (List.length a) (a ++ b) = a.
Proof. induction a; cbn; congruence. Qed.

Lemma map_inj {X Y} (f : X -> Y) : (forall a b, f a = f b -> a = b) -> forall l1 l2, map f l1 = map f l2 -> l1 = l2.
Proof.
  intros Hf. induction l1 as [|a r IH]; intros [|b s]; simpl; intros H; try discriminate; try reflexivity.
  injection H as E1 E2. f_equal; auto.
Qed.

Lemma map_snd_combine {X Y} (l1 : list X) : forall (l2 : list Y),
  List.length l1 = List.length l2 -> map snd (combine l1 l2) = l2.
Proof.
  induction l1 as [|a r IH]; intros [|b s] H; simpl in *; try discriminate; try reflexivity.
  f_equal. apply IH. lia.
Qed.

Lemma combine_map_r {X Y Z} (f : Y -> Z) (l1 : list X) : forall (l2 : list Y),
  combine l1 (map f l2) = map (fun p => (fst p, f (snd p))) (combine l1 l2).
Proof.
  induction l1 as [|a r IH]; intros [|b s]; simpl; try reflexivity. f_equal. apply IH.
Qed.

Lemma In_keys_pair {K X} (k : K) (s : list (K * X)) : In k (map fst s) -> exists x, In (k, x) s.
Proof.
  intros H. apply in_map_iff in H. destruct H as [[k' x] [Hk Hin]]. simpl in Hk. subst k'. exists x. exact Hin.
Qed.

Lemma NoDup_app_intro {X} (l1 l2 : list X) :
  NoDup l1 -> NoDup l2 -> (forall a, In a l1 -> ~ In a l2) -> NoDup (l1 ++ l2).
Proof.
  induction l1 as [|a l1 IH]; intros H1 H2 Hd; [exact H2|].
  inversion H1 as [|a' l' Hna Hnd]; subst. simpl. constructor.
  - rewrite in_app_iff. intros [Hin|Hin]; [exact (Hna Hin)|]. exact (Hd a (or_introl eq_refl) Hin).
  - apply IH; [exact Hnd|exact H2|]. intros b Hb. apply Hd. right. exact Hb.
Qed.

Lemma NoDup_map_filter {X Y} (g : X -> Y) (f : X -> bool) (l : list X) :
  NoDup (map g l) -> NoDup (map g (filter f l)).
Proof.
  induction l as [|a l IH]; intros H; [constructor|].
  simpl in H. inversion H as [|a' l' Hna Hnd]; subst. simpl.
  destruct (f a); [|exact (IH Hnd)]. simpl. constructor; [|exact (IH Hnd)].
  intros Hin. apply Hna. apply in_map_iff in Hin. destruct Hin as [b [Hb Hin]].
  apply filter_In in Hin. apply in_map_iff. exists b. split; [exact Hb|apply Hin].
Qed.

Lemma Forall2_len {X Y} (R : X -> Y -> Prop) l1 l2 : Forall2 R l1 l2 -> List.length l1 = List.length l2.
Proof. induction 1; simpl; congruence. Qed.

Lemma Forall2_imp {X Y} (R S : X -> Y -> Prop) l1 l2 :
  (forall a b, R a b -> S a b) -> Forall2 R l1 l2 -> Forall2 S l1 l2.
Proof. intros H. induction 1; constructor; auto. Qed.

Lemma Forall2_Forall_l {X Y} (R : X -> Y -> Prop) (A : X -> Prop) l ys :
  Forall2 R l ys -> (forall x y, R x y -> A x) -> Forall A l.
Proof. intros H HA. induction H; constructor; eauto. Qed.

Lemma Forall2_Forall_r {X Y} (R : X -> Y -> Prop) (B : Y -> Prop) l ys :
  Forall2 R l ys -> (forall x y, R x y -> B y) -> Forall B ys.
Proof. intros H HB. induction H; constructor; eauto. Qed.

Lemma Forall2_Forall {X Y} (P : X -> Prop) (Q : Y -> Prop) (R : X -> Y -> Prop) l l' :
  (forall x y, R x y -> P x -> Q y) -> Forall2 R l l' -> Forall P l -> Forall Q l'.
Proof.
  intros HR H. induction H as [|x y l l' Hxy H IH]; intros HP; [constructor|].
  inversion HP; subst. constructor; [eapply HR; eauto|auto].
Qed.

Lemma Forall2_Exists {X Y} (P : X -> Prop) (Q : Y -> Prop) (R : X -> Y -> Prop) l l' :
  (forall x y, R x y -> P x -> Q y) -> Forall2 R l l' -> Exists P l -> Exists Q l'.
Proof.
  intros HR H. induction H as [|x y l l' Hxy H IH]; intros HP; [inversion HP|].
  inversion HP; subst; [apply Exists_cons_hd; eapply HR; eauto|apply Exists_cons_tl; auto].
Qed.

Lemma Forall2_In_l {X Y} (R : X -> Y -> Prop) l1 l2 a :
  Forall2 R l1 l2 -> In a l1 -> exists b, In b l2 /\ R a b.
Proof.
  induction 1 as [|x y r1 r2 Hxy Hr IH]; intros Hin; [contradiction|].
  destruct Hin as [<-|Hin]; [exists y; split; [left; reflexivity|exact Hxy]|].
  destruct (IH Hin) as [b [Hb Hab]]. exists b. split; [right; exact Hb|exact Hab].
Qed.

Lemma Forall2_imp_Forall_l {X Y} (A : X -> Prop) (R S : X -> Y -> Prop) l ys :
  Forall A l -> (forall x y, A x -> R x y -> S x y) -> Forall2 R l ys -> Forall2 S l ys.
Proof. intros HA HS H. induction H; inversion HA; subst; constructor; auto. Qed.

Lemma Forall2_cons_r {X Y} (R : X -> Y -> Prop) l y ys :
  Forall2 R l (y :: ys) -> exists x xs, l = x :: xs /\ R x y /\ Forall2 R xs ys.
Proof. inversion 1; subst; eauto. Qed.

Lemma Forall2_nil_r {X Y} (R : X -> Y -> Prop) l : Forall2 R l [] -> l = [].
Proof. inversion 1; reflexivity. Qed.

Lemma Forall2_nth_l {X Y} (R : X -> Y -> Prop) l1 l2 i x :
  Forall2 R l1 l2 -> nth_error l1 i = Some x -> exists y, nth_error l2 i = Some y /\ R x y.
Proof.
  intros H. revert i. induction H as [|a b l1 l2 Hab _ IH]; intros [|i] Hx; simpl in Hx; try discriminate Hx.
  - injection Hx as <-. exists b. split; [reflexivity|exact Hab].
  - exact (IH i Hx).
Qed.

Lemma Forall2_map_left {X X' Y} (h : X -> X') (R : X' -> Y -> Prop) xs ys :
  Forall2 (fun x y => R (h x) y) xs ys -> Forall2 R (map h xs) ys.
Proof. induction 1; simpl; constructor; assumption. Qed.

Lemma forallb_Forall {X} (f : X -> bool) (P : X -> Prop) l :
  (forall x, f x = true -> P x) -> forallb f l = true -> Forall P l.
Proof. intros H Hf. apply Forall_forall. intros x Hx. rewrite forallb_forall in Hf. auto. Qed.

Lemma Forall_forallb_mp {X} (q : X -> bool) (P : X -> Prop) l :
  Forall (fun x => q x = true -> P x) l -> forallb q l = true -> Forall P l.
Proof. intros H Hq. rewrite forallb_forall in Hq. rewrite Forall_forall in *. auto. Qed.

Lemma Forall2_forallb {X Y} (q : Y -> bool) (l : list X) l' :
  Forall2 (fun _ y => q y = true) l l' -> forallb q l' = true.
Proof. intros H. apply forallb_forall, Forall_forall. exact (Forall2_Forall_r _ _ _ _ H (fun _ _ Hy => Hy)). Qed.

Lemma forallb_ext {X} (f g : X -> bool) l : (forall x, f x = g x) -> forallb f l = forallb g l.
Proof. intros H. induction l as [|x l IH]; [reflexivity|]. cbn [forallb]. rewrite H, IH. reflexivity. Qed.

Lemma existsb_false {X} (f : X -> bool) l : existsb f l = false <-> forall x, In x l -> f x = false.
Proof.
  induction l as [|a r IH]; simpl.
  - split; [intros _ x []|reflexivity].
  - rewrite orb_false_iff, IH. split.
    + intros [H1 H2] x [E|Hin]; [subst; assumption|auto].
    + intros H. split; [apply H; left; reflexivity|intros x Hin; apply H; right; exact Hin].
Qed.

Lemma Forall_forallb {X} (P : X -> Prop) (f : X -> bool) l :
  Forall P l -> forallb f l = true -> Forall (fun x => P x /\ f x = true) l.
Proof. intros H Hf. exact (Forall_and H (forallb_Forall f _ l (fun _ h => h) Hf)). Qed.

(* the list loops nested in [ty_eqb], [val_eqb] and [inst] are instances *)
Definition forallb2 {X Y} (p : X -> Y -> bool) :=
  fix go (l1 : list X) (l2 : list Y) {struct l1} : bool :=
    match l1, l2 with
    | [], [] => true
    | a :: r1, b :: r2 => p a b && go r1 r2
    | _, _ => false
    end.

Lemma forallb2_Forall2 {X Y} (p : X -> Y -> bool) l1 l2 :
  forallb2 p l1 l2 = true <-> Forall2 (fun a b => p a b = true) l1 l2.
Proof.
  revert l2. induction l1 as [|a r1 IH]; intros [|b r2]; simpl; split; intros H;
    try discriminate; try constructor; try solve [inversion H].
  - apply andb_true_iff in H. tauto.
  - apply andb_true_iff in H. apply IH. tauto.
  - inversion H; subst. apply andb_true_iff. split; [assumption|apply IH; assumption].
Qed.

Lemma forallb2_impl {X Y} (p q : X -> Y -> bool) l1 :
  Forall (fun a => forall b, p a b = true -> q a b = true) l1 ->
  forall l2, forallb2 p l1 l2 = true -> forallb2 q l1 l2 = true.
Proof.
  induction 1 as [|a r1 Ha Hr IH]; intros [|b r2] H; simpl in *; try discriminate H; [reflexivity|].
  apply andb_true_iff in H. destruct H as [H1 H2]. rewrite (Ha b H1). simpl. auto.
Qed.

Lemma forallb2_nth {X Y} (p : X -> Y -> bool) l1 : forall l2 i x y,
  forallb2 p l1 l2 = true -> nth_error l1 i = Some x -> nth_error l2 i = Some y -> p x y = true.
Proof.
  induction l1 as [|a r1 IH]; intros [|b r2] [|i] x y H Hx Hy; simpl in *; try discriminate.
  - apply andb_true_iff in H. injection Hx as <-. injection Hy as <-. exact (proj1 H).
  - apply andb_true_iff in H. exact (IH _ _ _ _ (proj2 H) Hx Hy).
Qed.

Lemma Forall2_map_eq {X Y Z} (R : X -> Y -> Prop) (f : X -> Z) (g : Y -> Z) xs : forall ys,
  Forall2 R xs ys -> (forall a b, In a xs -> In b ys -> R a b -> f a = g b) -> map f xs = map g ys.
Proof.
  induction xs as [|a r IH]; intros ys H Himp; inversion H; subst; simpl; [reflexivity|].
  f_equal; [apply Himp; simpl; auto|]. apply IH; [assumption|]. intros a' b' Ha Hb. apply Himp; simpl; auto.
Qed.

Lemma Forall2_diag {X} (R : X -> X -> Prop) l : Forall (fun x => R x x) l -> Forall2 R l l.
Proof. induction 1; constructor; assumption. Qed.

Lemma Forall2_id {X} (Q : X -> X -> Prop) l l' :
  (forall x y, In x l -> Q x y -> y = x) -> Forall2 Q l l' -> l' = l.
Proof.
  intros H HF. rewrite <- (map_id l'), <- (map_id l). symmetry.
  apply (Forall2_map_eq Q _ _ _ _ HF). intros a b Ha _ Hab. symmetry. exact (H a b Ha Hab).
Qed.

Lemma Forall2_flip_in {X} (R R' : X -> X -> Prop) xs : forall ys,
  Forall2 R xs ys -> (forall a b, In a xs -> In b ys -> R a b -> R' b a) -> Forall2 R' ys xs.
Proof.
  induction xs as [|a r IH]; intros ys H Himp; inversion H; subst; constructor.
  - apply Himp; simpl; auto.
  - apply IH; [assumption|]. intros a' b' Ha Hb. apply Himp; simpl; auto.
Qed.

Lemma Forall2_ex {X Y} (Q : X -> Y -> Prop) l : (forall x, In x l -> exists y, Q x y) -> exists l', Forall2 Q l l'.
Proof.
  induction l as [|a r IH]; intros H.
  - exists []. constructor.
  - destruct (H a (or_introl eq_refl)) as [b Hb].
    destruct (IH (fun x Hin => H x (or_intror Hin))) as [r' Hr].
    exists (b :: r'). constructor; assumption.
Qed.

(* [nodupb] of Model/Ty and [nodup_keys] of Model/ValSpec are this loop at [String.eqb] and at [list_eqb] *)
Definition nodup_by {X} (eqb : X -> X -> bool) :=
  fix go (l : list X) : bool := match l with [] => true | a :: r => negb (existsb (eqb a) r) && go r end.

Lemma nodup_by_NoDup {X} (eqb : X -> X -> bool) l : (forall a, eqb a a = true) -> nodup_by eqb l = true -> NoDup l.
Proof.
  intros Hrefl. induction l as [|a r IH]; simpl; intros H; [constructor|].
  apply andb_true_iff in H. destruct H as [Hn Hr]. constructor; [|auto].
  intros Hin. apply negb_true_iff in Hn.
  assert (existsb (eqb a) r = true) as He by (apply existsb_exists; eauto).
  congruence.
Qed.

Lemma nodupb_NoDup l : nodupb l = true -> NoDup l.
Proof. exact (nodup_by_NoDup String.eqb l String.eqb_refl). Qed.

Lemma bind_some {X Y} (o : option X) (k : X -> option Y) y :
  bind o k = Some y -> exists x, o = Some x /\ k x = Some y.
Proof. destruct o as [x|]; simpl; intros H; [eauto|discriminate]. Qed.

Lemma mapM_cons {X Y} (g : X -> option Y) a r :
  mapM g (a :: r) = (do y <- g a; do ys <- mapM g r; Some (y :: ys)).
Proof. reflexivity. Qed.

Lemma mapM_Forall2 {X Y} (g : X -> option Y) : forall l ys,
  mapM g l = Some ys -> Forall2 (fun a y => g a = Some y) l ys.
Proof.
  induction l as [|a r IH]; simpl; intros ys H.
  - inversion H; subst. constructor.
  - apply bind_some in H. destruct H as [y [Hy H]].
    apply bind_some in H. destruct H as [ys' [Hys H]]. inversion H; subst.
    constructor; auto.
Qed.

Lemma mapM_ext_Forall {X Y} (g h : X -> option Y) (P : Y -> Prop) l :
  (forall x y, g x = Some y -> h x = Some y /\ P y) ->
  forall ys, mapM g l = Some ys -> mapM h l = Some ys /\ Forall P ys.
Proof.
  intros Hgh. induction l as [|a r IH]; intros ys H.
  - injection H as <-. split; [reflexivity|constructor].
  - rewrite mapM_cons in *. apply bind_some in H. destruct H as [y [Hy H]].
    apply bind_some in H. destruct H as [ys' [Hys H]]. injection H as <-.
    destruct (Hgh _ _ Hy) as [-> Py]. destruct (IH _ Hys) as [-> Pr]. split; [reflexivity|constructor; assumption].
Qed.

Lemma option_map_Some {X Y} (f : X -> Y) (o : option X) y :
  option_map f o = Some y -> exists x, o = Some x /\ y = f x.
Proof. destruct o as [x|]; cbn; intros H; [injection H as <-; exists x; auto | discriminate H]. Qed.

Lemma mapM_rel {X Y} (f : X -> option Y) (R : X -> Y -> Prop) l :
  Forall (fun x => forall y, f x = Some y -> R x y) l -> forall l', mapM f l = Some l' -> Forall2 R l l'.
Proof.
  intros HF l' H. apply mapM_Forall2 in H.
  induction H as [|x y r r' Hy _ IH]; inversion HF; subst; constructor; auto.
Qed.

Lemma Forall2_mapM_map {X Y} (f : X -> option Y) (g : X -> X) (g' : Y -> Y) l l' :
  Forall2 (fun x y => f (g x) = Some (g' y)) l l' -> mapM f (map g l) = Some (map g' l').
Proof.
  induction 1 as [|x y l l' Hy _ IH]; [reflexivity|]. cbn [map]. rewrite mapM_cons, Hy, IH. reflexivity.
Qed.

Lemma mapM_fixes {X} (f : X -> option X) l : Forall (fun x => f x = Some x) l -> mapM f l = Some l.
Proof. induction 1 as [|x r Hx _ IH]; [reflexivity|]. rewrite mapM_cons, Hx, IH. reflexivity. Qed.

Lemma list_eqb_eq a : forall b, list_eqb a b = true <-> a = b.
Proof.
  induction a as [|x r IH]; intros [|y s]; simpl; split; intros H; try discriminate; try reflexivity.
  - apply andb_true_iff in H. destruct H as [H1 H2]. apply N.eqb_eq in H1. apply IH in H2. congruence.
  - injection H as E1 E2. subst. rewrite N.eqb_refl. simpl. apply IH. reflexivity.
Qed.

Lemma list_eqb_refl a : list_eqb a a = true.
Proof. apply list_eqb_eq. reflexivity. Qed.

Lemma list_eqb_neq a b : list_eqb a b = false <-> a <> b.
Proof. rewrite <- list_eqb_eq. destruct (list_eqb a b); split; congruence. Qed.

Lemma list_eqb_sym a b : list_eqb a b = list_eqb b a.
Proof.
  destruct (list_eqb b a) eqn:E.
  - apply list_eqb_eq in E. subst. apply list_eqb_refl.
  - apply list_eqb_neq. apply list_eqb_neq in E. congruence.
Qed.

Lemma existsb_list_eqb h l : existsb (list_eqb h) l = true <-> In h l.
Proof.
  rewrite existsb_exists. split.
  - intros [k [Hin Heq]]. apply list_eqb_eq in Heq. subst k. exact Hin.
  - intros Hin. exists h. split; [exact Hin|apply list_eqb_refl].
Qed.

Lemma existsb_keys {X} (k : list N) (s : list (list N * X)) :
  existsb (fun kx => list_eqb (fst kx) k) s = true <-> In k (map fst s).
Proof.
  rewrite existsb_exists, in_map_iff. split.
  - intros [kx [Hin Heq]]. apply list_eqb_eq in Heq. exists kx. split; assumption.
  - intros [kx [Heq Hin]]. exists kx. split; [exact Hin|]. rewrite Heq. apply list_eqb_refl.
Qed.

Lemma N_to_uint_nonnil n : N.to_uint n <> Decimal.Nil.
Proof. destruct n; simpl; [discriminate|apply DecimalPos.Unsigned.to_uint_nonnil]. Qed.

(* reading a numeral back ([NilZero.usu]) returns it unless it is [Nil], which [N.to_uint] never gives *)
Lemma string_of_N_inj a b : string_of_N a = string_of_N b -> a = b.
Proof.
  unfold string_of_N. intros H.
  apply DecimalN.Unsigned.to_uint_inj.
  assert (Some (N.to_uint a) = Some (N.to_uint b)) as E.
  { rewrite <- (NilZero.usu _ (N_to_uint_nonnil a)), <- (NilZero.usu _ (N_to_uint_nonnil b)), H. reflexivity. }
  congruence.
Qed.

Lemma index_of_nth {X} n (l : list (string * X)) : forall i, index_of n l = Some i ->
  exists x, nth_error l i = Some (n, x) /\ assoc n l = Some x.
Proof.
  induction l as [|[m x] r IH]; simpl; intros i H; [discriminate|].
  destruct (String.eqb_spec n m) as [E|E].
  - injection H as <-. subst. eexists; split; reflexivity.
  - destruct (index_of n r) as [j|]; [|discriminate]. injection H as <-. simpl. apply IH. reflexivity.
Qed.

Lemma nth_index_of {X} n (l : list (string * X)) : forall i x,
  NoDup (map fst l) -> nth_error l i = Some (n, x) -> index_of n l = Some i.
Proof.
  induction l as [|[m y] r IH]; intros [|i] x Hnd H; simpl in *; try discriminate.
  - injection H as -> ->. rewrite String.eqb_refl. reflexivity.
  - inversion Hnd as [|? ? Hnotin Hnd']; subst.
    destruct (String.eqb_spec n m) as [E|E].
    + subst. exfalso. apply Hnotin. apply nth_error_In in H. apply (in_map fst) in H. exact H.
    + rewrite (IH i x Hnd' H). reflexivity.
Qed.

Lemma assoc_app {X} n (a b : list (string * X)) :
  assoc n (a ++ b)%list = match assoc n a with Some x => Some x | None => assoc n b end.
Proof.
  induction a as [|[k v] r IH]; simpl; [reflexivity|].
  destruct (String.eqb n k); [reflexivity|exact IH].
Qed.

Lemma keys_tabulate {X} (g : string -> X) l : map fst (map (fun k => (k, g k)) l) = l.
Proof. induction l; simpl; congruence. Qed.

Lemma assoc_tabulate {X} (g : string -> X) l v : In v l -> assoc v (map (fun k => (k, g k)) l) = Some (g v).
Proof.
  induction l as [|a r IH]; simpl; intros Hin; [contradiction|].
  destruct (String.eqb_spec v a) as [E|E]; [subst; reflexivity|]. destruct Hin as [E'|Hin]; [congruence|exact (IH Hin)].
Qed.

Lemma assoc_index_of {X} n (l : list (string * X)) x : assoc n l = Some x -> exists i, index_of n l = Some i.
Proof.
  induction l as [|[k v] r IH]; simpl; intros H; [discriminate H|].
  destruct (String.eqb n k); [eauto|]. destruct (IH H) as [i E]. rewrite E. simpl. eauto.
Qed.

Definition eventually (A : nat -> Prop) : Prop := exists n0, forall n, (n0 <= n)%nat -> A n.

Lemma ev_all (A : nat -> Prop) : (forall n, A n) -> eventually A.
Proof. intros H. exists 0%nat. intros n _. apply H. Qed.

Lemma ev_and A B : eventually A -> eventually B -> eventually (fun n => A n /\ B n).
Proof. intros [n1 H1] [n2 H2]. exists (Nat.max n1 n2). intros n Hn. split; [apply H1|apply H2]; lia. Qed.

Lemma ev_mono (A B : nat -> Prop) : (forall n, A n -> B n) -> eventually A -> eventually B.
Proof. intros H [n0 H0]. exists n0. intros n Hn. apply H, H0, Hn. Qed.

Lemma ev_Forall {X} (A : X -> nat -> Prop) l :
  Forall (fun x => eventually (A x)) l -> eventually (fun n => Forall (fun x => A x n) l).
Proof.
  induction 1 as [|x r Hx _ IH]; [apply ev_all; constructor|].
  apply (ev_mono _ _ (fun n H => Forall_cons x (proj1 H) (proj2 H)) (ev_and _ _ Hx IH)).
Qed.

Lemma ev_S (A B : nat -> Prop) : (forall n, A n -> B (S n)) -> eventually A -> eventually B.
Proof. intros H [n0 H0]. exists (S n0). intros [|n] Hn; [lia|]. apply H, H0. lia. Qed.

Lemma ev_pos (A : nat -> Prop) : (forall n, A (S n)) -> eventually A.
Proof. intros H. exact (ev_S (fun _ => True) A (fun n _ => H n) (ev_all _ (fun _ => I))). Qed.

Section Lookup.
  Context {K : Type} (eqb : K -> K -> bool) (get : forall X, K -> list (K * X) -> option X).
  Hypothesis eqb_eq : forall a b, eqb a b = true <-> a = b.
  Hypothesis get_nil : forall X k, get X k [] = None.
  Hypothesis get_cons : forall X k k' x r, get X k ((k', x) :: r) = if eqb k k' then Some x else get X k r.

  Lemma get_In X k l (x : X) : get X k l = Some x -> In (k, x) l.
  Proof.
    induction l as [|[k' x'] r IH]; [rewrite get_nil; discriminate|]. rewrite get_cons. destruct (eqb k k') eqn:E.
    - apply eqb_eq in E. intros [= ->]. left. congruence.
    - right. auto.
  Qed.

  Lemma In_get X k l (x : X) : NoDup (map fst l) -> In (k, x) l -> get X k l = Some x.
  Proof.
    induction l as [|[k' x'] r IH]; intros Hnd Hin; [contradiction|]. rewrite get_cons.
    cbn [map fst] in Hnd. apply NoDup_cons_iff in Hnd as [Hnotin Hnd]. destruct (eqb k k') eqn:E.
    - destruct Hin as [[= _ ->]|Hin]; [reflexivity|].
      apply eqb_eq in E. subst k'. destruct Hnotin. exact (in_map fst _ _ Hin).
    - destruct Hin as [[= -> _]|Hin]; [|auto]. rewrite (proj2 (eqb_eq k k) eq_refl) in E. discriminate.
  Qed.

  Lemma keys_get X k (l : list (K * X)) : In k (map fst l) -> exists x, get X k l = Some x.
  Proof.
    induction l as [|[k' x'] r IH]; intros Hin; [contradiction|]. rewrite get_cons.
    destruct (eqb k k') eqn:E; [eexists; reflexivity|].
    cbn [map fst In] in Hin. destruct Hin as [->|Hin]; [|auto]. rewrite (proj2 (eqb_eq k k) eq_refl) in E. discriminate.
  Qed.
End Lookup.

Lemma assoc_In {X} n (l : list (string * X)) t : assoc n l = Some t -> In (n, t) l.
Proof. exact (get_In String.eqb (@assoc) String.eqb_eq (fun _ _ => eq_refl) (fun _ _ _ _ _ => eq_refl) X n l t). Qed.

Lemma In_assoc {X} n (l : list (string * X)) t :
  NoDup (map fst l) -> In (n, t) l -> assoc n l = Some t.
Proof. exact (In_get String.eqb (@assoc) String.eqb_eq (fun _ _ _ _ _ => eq_refl) X n l t). Qed.

Lemma In_keys_assoc {X} n (l : list (string * X)) :
  In n (map fst l) -> exists t, assoc n l = Some t.
Proof. exact (keys_get String.eqb (@assoc) String.eqb_eq (fun _ _ _ _ _ => eq_refl) X n l). Qed.

Lemma assoc_In_keys {X} n (l : list (string * X)) t : assoc n l = Some t -> In n (map fst l).
Proof. intros H. apply assoc_In in H. apply (in_map fst) in H. exact H. Qed.

Lemma map_fst_keyed {K X Z} (g : X -> Z) (l : list (K * X)) :
  map fst (map (fun p => (fst p, g (snd p))) l) = map fst l.
Proof. rewrite map_map. apply map_ext. reflexivity. Qed.

Section Keyed.
  Context {K : Type} (get : forall X, K -> list (K * X) -> option X).
  Hypothesis get_In : forall X k l (x : X), get X k l = Some x -> In (k, x) l.
  Hypothesis In_get : forall X k l (x : X), NoDup (map fst l) -> In (k, x) l -> get X k l = Some x.
  Hypothesis keys_get : forall X k (l : list (K * X)), In k (map fst l) -> exists x, get X k l = Some x.

  Definition all_get {X Y} (R : X -> Y -> Prop) (kx : list (K * X)) (ky : list (K * Y)) : Prop :=
    forall k a, In (k, a) kx -> exists b, get Y k ky = Some b /\ R a b.

  (* the by-key loops nested in [ty_eqb], [val_eqb] and [inst]; like them it takes the list that is searched first and
     recurses on the other *)
  Definition allb_get {X Y} (p : X -> Y -> bool) (ky : list (K * Y)) :=
    fix go (kx : list (K * X)) : bool :=
      match kx with
      | [] => true
      | (k, a) :: r => match get Y k ky with Some b => p a b | None => false end && go r
      end.

  Lemma allb_get_spec {X Y} (p : X -> Y -> bool) ky kx :
    allb_get p ky kx = true <-> all_get (fun a b => p a b = true) kx ky.
  Proof.
    unfold all_get. induction kx as [|[k a] r IH]; simpl; split; intros H.
    - intros ? ? [].
    - reflexivity.
    - apply andb_true_iff in H. destruct H as [H1 H2]. intros k' a' [E|Hin].
      + inversion E; subst. destruct (get Y k' ky) as [b|]; [|discriminate]. eauto.
      + apply IH; assumption.
    - apply andb_true_iff. split.
      + destruct (H k a (or_introl eq_refl)) as [b [Hb Hv]]. rewrite Hb. exact Hv.
      + apply IH. intros k' a' Hin. apply H. right. exact Hin.
  Qed.

  Lemma allb_get_impl {X Y} (p q : X -> Y -> bool) ky kx :
    Forall (fun ka => forall b, p (snd ka) b = true -> q (snd ka) b = true) kx ->
    allb_get p ky kx = true -> allb_get q ky kx = true.
  Proof.
    induction 1 as [|[k a] r Ha Hr IH]; intros H; simpl in *; [reflexivity|].
    apply andb_true_iff in H. destruct H as [H1 H2].
    destruct (get Y k ky) as [b|]; [|discriminate H1]. rewrite (Ha b H1). simpl. auto.
  Qed.

  (* pigeonhole: the keys of [kx] are all the keys of [ky] *)
  Lemma all_get_flip {X Y} (R : X -> Y -> Prop) kx ky :
    NoDup (map fst kx) -> NoDup (map fst ky) -> List.length kx = List.length ky ->
    all_get R kx ky -> all_get (fun b a => R a b) ky kx.
  Proof.
    intros Hn1 Hn2 Hlen H k b Hin.
    assert (In k (map fst kx)) as Hk.
    { apply (@NoDup_length_incl _ (map fst kx) (map fst ky) Hn1).
      - rewrite !map_length. lia.
      - intros k' Hk'. apply in_map_iff in Hk'. destruct Hk' as [[k2 a] [<- Hin2]].
        destruct (H _ _ Hin2) as [b' [Hb' _]]. apply get_In in Hb'. apply (in_map fst) in Hb'. exact Hb'.
      - apply (in_map fst) in Hin. exact Hin. }
    destruct (keys_get _ _ _ Hk) as [a Ha]. exists a. split; [assumption|].
    destruct (H _ _ (get_In _ _ _ _ Ha)) as [b' [Hb' Hr]].
    rewrite (In_get _ _ _ _ Hn2 Hin) in Hb'. injection Hb' as <-. exact Hr.
  Qed.

  Lemma all_get_perm {X Y Z} (g : X -> Z) (h : Y -> Z) kx ky :
    NoDup (map fst kx) -> List.length kx = List.length ky ->
    all_get (fun a b => g a = h b) kx ky ->
    Permutation (map (fun p => (fst p, g (snd p))) kx) (map (fun p => (fst p, h (snd p))) ky).
  Proof.
    intros Hn1 Hlen H. apply NoDup_Permutation_bis.
    - apply (NoDup_map_inv fst). rewrite map_map. exact Hn1.
    - rewrite !map_length. lia.
    - intros [k z] Hin. apply in_map_iff in Hin. destruct Hin as [[k' a] [[= -> <-] Hin]].
      destruct (H k a Hin) as [b [Hb ->]]. apply get_In in Hb. apply in_map_iff. exists (k, b). auto.
  Qed.
End Keyed.

Section InsSort.
  Context {X K : Type} (key : X -> K) (leb : K -> K -> bool).
  Hypothesis leb_total : forall a b, leb a b = true \/ leb b a = true.
  Hypothesis leb_trans : forall a b c, leb a b = true -> leb b c = true -> leb a c = true.
  Hypothesis leb_antisym : forall a b, leb a b = true -> leb b a = true -> a = b.

  Fixpoint ins (x : X) (l : list X) : list X :=
    match l with
    | [] => [x]
    | y :: r => if leb (key x) (key y) then x :: l else y :: ins x r
    end.
  Definition isort (l : list X) : list X := fold_right ins [] l.

  Lemma fold_ins_isort (ins' : X -> list X -> list X) :
    (forall x l, ins' x l = ins x l) -> forall l, fold_right ins' [] l = isort l.
  Proof. intros H. induction l as [|x r IH]; [reflexivity|]. simpl. rewrite IH. apply H. Qed.

  Let le (a b : X) : Prop := leb (key a) (key b) = true.

  Lemma ins_perm x l : Permutation (ins x l) (x :: l).
  Proof.
    induction l as [|y r IH]; simpl; [apply Permutation_refl|].
    destruct (leb (key x) (key y)); [apply Permutation_refl|].
    eapply perm_trans; [apply perm_skip; exact IH|apply perm_swap].
  Qed.

  Lemma isort_perm l : Permutation (isort l) l.
  Proof.
    induction l as [|x r IH]; simpl; [apply perm_nil|].
    eapply perm_trans; [apply ins_perm|]. apply perm_skip. exact IH.
  Qed.

  Lemma ins_sorted x l : StronglySorted le l -> StronglySorted le (ins x l).
  Proof.
    induction l as [|y r IH]; simpl; intros Hs; [constructor; constructor|].
    apply StronglySorted_inv in Hs. destruct Hs as [Hr Hall].
    destruct (leb (key x) (key y)) eqn:E.
    - constructor; [constructor; assumption|]. constructor; [exact E|].
      eapply Forall_impl; [|exact Hall]. intros z Hz. exact (leb_trans _ _ _ E Hz).
    - constructor; [auto|].
      eapply Permutation_Forall; [apply Permutation_sym; apply ins_perm|].
      constructor; [|assumption]. destruct (leb_total (key x) (key y)) as [H|H]; [congruence|exact H].
  Qed.

  Lemma isort_sorted l : StronglySorted le (isort l).
  Proof. induction l as [|x r IH]; simpl; [constructor|apply ins_sorted; exact IH]. Qed.

  Lemma sorted_perm_eq : forall l1 l2,
    StronglySorted le l1 -> StronglySorted le l2 -> NoDup (map key l1) -> Permutation l1 l2 -> l1 = l2.
  Proof.
    induction l1 as [|a r1 IH]; intros l2 S1 S2 Hnd Hp.
    - apply Permutation_nil in Hp. subst. reflexivity.
    - destruct l2 as [|b r2].
      { apply Permutation_sym in Hp. apply Permutation_nil in Hp. discriminate. }
      apply StronglySorted_inv in S1. destruct S1 as [S1 F1].
      apply StronglySorted_inv in S2. destruct S2 as [S2 F2].
      simpl in Hnd. inversion Hnd as [|? ? Hnotin Hnd']; subst.
      (* otherwise [a] is in [r2] and [b] in [r1], each is <= the other, their keys are equal, and [a]'s key occurs again
         in [r1] *)
      assert (a = b) as Eab.
      { assert (In a (b :: r2)) as Ha by (eapply Permutation_in; [exact Hp|left; reflexivity]).
        assert (In b (a :: r1)) as Hb
            by (eapply Permutation_in; [apply Permutation_sym; exact Hp|left; reflexivity]).
        destruct Ha as [Ha|Ha]; [congruence|]. destruct Hb as [Hb|Hb]; [congruence|].
        exfalso. apply Hnotin.
        rewrite Forall_forall in F1, F2.
        rewrite (leb_antisym _ _ (F1 _ Hb) (F2 _ Ha)). apply in_map. exact Hb. }
      subst b. f_equal. apply IH; try assumption.
      eapply Permutation_cons_inv; eauto.
  Qed.

  Lemma isort_perm_eq l1 l2 : NoDup (map key l1) -> Permutation l1 l2 -> isort l1 = isort l2.
  Proof.
    intros Hnd Hp. apply sorted_perm_eq; try apply isort_sorted.
    - eapply Permutation_NoDup; [|exact Hnd]. apply Permutation_map. apply Permutation_sym. apply isort_perm.
    - eapply perm_trans; [apply isort_perm|]. eapply perm_trans; [exact Hp|].
      apply Permutation_sym. apply isort_perm.
  Qed.
End InsSort.

Lemma sorted_strict {X K} (key : X -> K) (R S : X -> X -> Prop) l :
  (forall a b, R a b -> key a <> key b -> S a b) ->
  StronglySorted R l -> NoDup (map key l) -> StronglySorted S l.
Proof.
  intros H. induction 1 as [|a r _ IH Hall]; intros Hnd; [constructor|].
  cbn [map] in Hnd. apply NoDup_cons_iff in Hnd as [Hn Hnd]. constructor; [exact (IH Hnd)|].
  rewrite Forall_forall in *. intros b Hb. apply H; [exact (Hall b Hb)|].
  intros E. apply Hn. rewrite E. apply in_map, Hb.
Qed.

Lemma StronglySorted_app_inv {X} (R : X -> X -> Prop) a b :
  StronglySorted R (a ++ b) -> StronglySorted R a /\ StronglySorted R b /\ (forall x y, In x a -> In y b -> R x y).
Proof.
  induction a as [|t a IH]; cbn [app]; intros H.
  - split; [constructor|]. split; [exact H|]. intros x y [].
  - apply StronglySorted_inv in H as [H HF]. apply IH in H as (H1 & H2 & H3). apply Forall_app in HF as [HF1 HF2].
    split; [constructor; assumption|]. split; [exact H2|].
    intros x y [<-|Hx] Hy; [exact (proj1 (Forall_forall _ _) HF2 y Hy) | exact (H3 x y Hx Hy)].
Qed.

Lemma sort_ops_isort {X} (key : X -> nat) l : sort_ops key l = isort key (fun a b => Nat.leb b a) l.
Proof.
  revert l. apply fold_ins_isort.
  intros x l. induction l as [|y r IH]; [reflexivity|]. cbn [insert_by_len ins]. rewrite IH. reflexivity.
Qed.

Lemma sort_ops_In {X} (key : X -> nat) y l : In y (sort_ops key l) <-> In y l.
Proof.
  rewrite sort_ops_isort. split; apply Permutation_in; [|apply Permutation_sym]; apply isort_perm.
Qed.

Lemma ascii_compare_refl c : Ascii.compare c c = Eq.
Proof. unfold Ascii.compare. apply N.compare_refl. Qed.

Lemma ascii_compare_lt_trans a b c :
  Ascii.compare a b = Lt -> Ascii.compare b c = Lt -> Ascii.compare a c = Lt.
Proof. unfold Ascii.compare. rewrite !N.compare_lt_iff. apply N.lt_trans. Qed.

Lemma str_compare_lt_trans : forall s1 s2 s3,
  String.compare s1 s2 = Lt -> String.compare s2 s3 = Lt -> String.compare s1 s3 = Lt.
Proof.
  induction s1 as [|c1 s1 IH]; intros [|c2 s2] [|c3 s3]; simpl; intros H1 H2; try discriminate; try reflexivity.
  destruct (Ascii.compare c1 c2) eqn:E12; try discriminate;
    destruct (Ascii.compare c2 c3) eqn:E23; try discriminate.
  - apply Ascii.compare_eq_iff in E12. apply Ascii.compare_eq_iff in E23. subst.
    rewrite ascii_compare_refl. eauto.
  - apply Ascii.compare_eq_iff in E12. subst. rewrite E23. reflexivity.
  - apply Ascii.compare_eq_iff in E23. subst. rewrite E12. reflexivity.
  - rewrite (ascii_compare_lt_trans _ _ _ E12 E23). reflexivity.
Qed.

Lemma str_leb_trans s1 s2 s3 :
  String.leb s1 s2 = true -> String.leb s2 s3 = true -> String.leb s1 s3 = true.
Proof.
  unfold String.leb. intros H1 H2.
  destruct (String.compare s1 s2) eqn:E12; try discriminate.
  - apply String.compare_eq_iff in E12. subst. exact H2.
  - destruct (String.compare s2 s3) eqn:E23; try discriminate.
    + apply String.compare_eq_iff in E23. subst. rewrite E12. reflexivity.
    + rewrite (str_compare_lt_trans _ _ _ E12 E23). reflexivity.
Qed.

Lemma sort_kv_isort {X} (l : list (string * X)) : sort_kv l = isort fst String.leb l.
Proof.
  revert l. apply fold_ins_isort.
  intros [k x] l. induction l as [|[k' x'] r IH]; simpl in *; [reflexivity|]. rewrite IH. reflexivity.
Qed.

Lemma sort_kv_perm_eq {X} (l1 l2 : list (string * X)) :
  NoDup (map fst l1) -> Permutation l1 l2 -> sort_kv l1 = sort_kv l2.
Proof.
  rewrite !sort_kv_isort. apply isort_perm_eq; [apply String.leb_total|apply str_leb_trans|apply String.leb_antisym].
Qed.

Lemma sort_kv_eq_perm {X} (l1 l2 : list (string * X)) : sort_kv l1 = sort_kv l2 -> Permutation l1 l2.
Proof.
  rewrite !sort_kv_isort. intros E.
  eapply perm_trans; [apply Permutation_sym; apply (isort_perm fst String.leb)|]. rewrite E. apply isort_perm.
Qed.
