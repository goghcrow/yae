(* Proofs for Props/C11.v: the bytecode verifier of Model/Verifier.v against the VM and the compiler of Model/VM.v.
   Soundness ([verified_safe]): at a pc the verifier has passed with depth d ([reached]), one VM step on a stack of d
   entries raises neither of the two faults and ends at such a pc again.  The compiler's output verifies
   ([compile_verifies]): [FR pool pc frag a b] says that the verifier passes the fragment [frag] at [pc] from depth a to
   depth b whatever follows; by induction on the shape of compiled code (VMFacts.cshape), an expression whose annotations
   fit the compiler's layout ([awf], which the checker guarantees) compiles to a fragment from 0 to 1 ([shape_ok]). *)
From Coq Require Import List String Ascii Bool Arith NArith ZArith Lia.
From Yae Require Import Base.Sexp Model.Ty Gen.Generated Model.Unify Model.Num Model.Lexer Model.Literal Model.Cst
  Model.Check Model.CheckSpec Model.Val Model.Render Model.Builtins Model.Eval Model.EvalSpec Model.VM Model.Verifier
  Proofs.ListFacts Proofs.ValFacts Proofs.EvalFacts Proofs.VMFacts.
From Yae Require Proofs.C05Proofs Proofs.C01Proofs.
Import ListNotations.
Local Open Scope nat_scope.
Local Open Scope list_scope.

Lemma opcode_table :
  forallb (fun o => match decode_op (op_byte o) with Some o' => String.eqb (op_name o) (op_name o') | None => false end) all_ops = true
  /\ List.length opcode_names = List.length all_ops.
Proof.
  split; [|reflexivity]. apply forallb_forall. intros o _. rewrite decode_op_byte. apply String.eqb_refl.
Qed.

Lemma emit16_roundtrip : forall n st st', emit16 n st = COk st' ->
  exists hi lo, cs_rcode st' = lo :: hi :: cs_rcode st /\ (hi * 256 + lo = n)%N /\ (hi < 256)%N /\ (lo < 256)%N.
Proof.
  intros n st st' H. unfold emit16 in H.
  destruct (N.leb n 65535) eqn:Hle; [|discriminate].
  apply N.leb_le in Hle. inversion H; subst; clear H.
  exists (n / 256)%N, (n mod 256)%N. cbn [emit_byte cs_rcode].
  split; [reflexivity|]. split.
  - apply b16_val.
  - split.
    + apply N.div_lt_upper_bound; [discriminate|]. change (256 * 256)%N with 65536%N. lia.
    + apply N.mod_lt. discriminate.
Qed.

Fixpoint decode_go (ops : list operand) (r : list N) (acc : decoded) : option decoded :=
  match ops with
  | [] => Some acc
  | Ob :: more =>
      match r with
      | x :: r' => decode_go more r' (mkDec (d_op acc) (d_const acc) (d_med acc) (d_jump acc) (Some x) (S (d_size acc)))
      | [] => None
      end
  | k :: more =>
      match r with
      | hi :: lo :: r' =>
          let v := (hi * 256 + lo)%N in
          let acc' := match k with
                      | Oc => mkDec (d_op acc) (Some v) (d_med acc) (d_jump acc) (d_b acc) (S (S (d_size acc)))
                      | Om => mkDec (d_op acc) (d_const acc) (Some v) (d_jump acc) (d_b acc) (S (S (d_size acc)))
                      | _ => mkDec (d_op acc) (d_const acc) (d_med acc) (Some v) (d_b acc) (S (S (d_size acc)))
                      end in
          decode_go more r' acc'
      | _ => None
      end
  end.

Lemma decode_cons b r :
  decode (b :: r) = match decode_op b with
                    | None => None
                    | Some o => decode_go (operands o) r (mkDec o None None None None 1)
                    end.
Proof. reflexivity. Qed.

Lemma decode_go_op ks : forall r acc dec, decode_go ks r acc = Some dec -> d_op dec = d_op acc.
Proof.
  induction ks as [|k ks IH]; intros r acc dec H; [injection H as <-; reflexivity|].
  destruct k; cbn [decode_go] in H; destruct r as [|x [|y r]]; try discriminate H; exact (IH _ _ _ H).
Qed.

Lemma decode_go_jump ks : forall r acc dec t,
  decode_go ks r acc = Some dec -> d_jump dec = Some t -> d_jump acc = Some t \/ In Oj ks.
Proof.
  induction ks as [|k ks IH]; intros r acc dec t H Hj; [injection H as <-; left; exact Hj|].
  destruct k; cbn [decode_go] in H; destruct r as [|x [|y r]]; try discriminate H;
    destruct (IH _ _ _ _ H Hj) as [E|E]; cbn [In]; auto.
Qed.

Lemma decode_op_of b r dec : decode (b :: r) = Some dec -> decode_op b = Some (d_op dec).
Proof.
  rewrite decode_cons. destruct (decode_op b) as [o|]; [|discriminate]. intros H. rewrite (decode_go_op _ _ _ _ H). reflexivity.
Qed.

Lemma decode_jump_op rest dec t : decode rest = Some dec -> d_jump dec = Some t -> d_op dec = OP_IF_TRUE \/ d_op dec = OP_JUMP.
Proof.
  destruct rest as [|b r]; [discriminate|]. rewrite decode_cons. destruct (decode_op b) as [o|]; [|discriminate]. intros H Hj.
  rewrite (decode_go_op _ _ _ _ H). destruct (decode_go_jump _ _ _ _ _ H Hj) as [E|E]; [discriminate E|].
  destruct o; cbn [operands In] in E; intuition discriminate.
Qed.

Definition is_ctl (o : opcode) : bool := match o with OP_RETURN | OP_JUMP | OP_IF_TRUE => true | _ => false end.

(* ADD_NUM (unary plus) is the one intrinsic the VM executes as a no-op *)
Lemma intrinsic_effect o bf k : intrinsic_sem o = Some (bf, k) ->
  operands o = [] /\ is_ctl o = false /\
  ((o = OP_ADD_NUM /\ k = 1) \/
   (o <> OP_ADD_NUM /\ forall pool, effect pool (mkDec o None None None None 1) = Some (k, 1))).
Proof.
  destruct o; try discriminate; intros H; injection H as _ <-;
    (split; [reflexivity|split; [reflexivity|]]); try (right; split; [discriminate|reflexivity]).
  left. split; reflexivity.
Qed.

Definition here (d : option nat) (pend : list (nat * nat)) (pc : nat) : option nat :=
  match d, pend_get pc pend with
  | Some a, Some b => if Nat.eqb a b then Some a else None
  | Some a, None => Some a
  | None, Some b => Some b
  | None, None => None
  end.
Definition agree (pend : list (nat * nat)) (pc : nat) (h : option nat) : bool :=
  forallb (fun x => if Nat.eqb (fst x) pc then match h with Some h => Nat.eqb (snd x) h | None => false end else true) pend.

Definition vnext (f : nat) (pool : list const) (codelen pc : nat) (rest : list N) (pend : list (nat * nat))
                 (depth : nat) (dec : decoded) (pops pushes : nat) : bool :=
  let nd := (depth - pops + pushes)%nat in
  let pend1 := pend_del pc pend in
  let next_pc := (pc + d_size dec)%nat in
  let next_rest := skipn (d_size dec) rest in
  match d_op dec with
  | OP_RETURN => Nat.eqb depth 1 && vloop f pool codelen next_pc next_rest None pend1 true
  | OP_JUMP =>
      match d_jump dec with
      | Some t => Nat.ltb pc (N.to_nat t) && Nat.ltb (N.to_nat t) codelen &&
                  vloop f pool codelen next_pc next_rest None ((N.to_nat t, nd) :: pend1) false
      | None => false
      end
  | OP_IF_TRUE =>
      match d_jump dec with
      | Some t => Nat.ltb pc (N.to_nat t) && Nat.ltb (N.to_nat t) codelen &&
                  vloop f pool codelen next_pc next_rest (Some nd) ((N.to_nat t, nd) :: pend1) false
      | None => false
      end
  | _ => vloop f pool codelen next_pc next_rest (Some nd) pend1 false
  end.

(* [is_ctl] but for IF_TRUE, which both jumps and falls through *)
Definition falls (o : opcode) : bool := match o with OP_RETURN | OP_JUMP => false | _ => true end.

Lemma not_ctl_falls o : is_ctl o = false -> falls o = true.
Proof. destruct o; intros H; try reflexivity; discriminate H. Qed.

Lemma vnext_default f pool L pc rest pend depth dec pops pushes :
  is_ctl (d_op dec) = false ->
  vnext f pool L pc rest pend depth dec pops pushes =
  vloop f pool L (pc + d_size dec) (skipn (d_size dec) rest) (Some (depth - pops + pushes)) (pend_del pc pend) false.
Proof. unfold vnext. destruct (d_op dec); try discriminate; reflexivity. Qed.

Lemma vnext_fall f pool L pc rest pend depth dec pops pushes :
  vnext f pool L pc rest pend depth dec pops pushes = true -> falls (d_op dec) = true ->
  exists pend', vloop f pool L (pc + d_size dec) (skipn (d_size dec) rest) (Some (depth - pops + pushes)) pend' false = true /\
                incl (pend_del pc pend) pend'.
Proof.
  intros H Hf. destruct (is_ctl (d_op dec)) eqn:Hc.
  - unfold vnext in H. destruct (d_op dec); try discriminate Hc; try discriminate Hf.
    destruct (d_jump dec); [|discriminate H]. apply andb_prop in H as [_ H].
    eexists. split; [exact H|apply incl_tl, incl_refl].
  - rewrite vnext_default in H by exact Hc. eexists. split; [exact H|apply incl_refl].
Qed.

Lemma vnext_jump f pool L pc rest pend depth dec pops pushes t :
  vnext f pool L pc rest pend depth dec pops pushes = true -> d_jump dec = Some t ->
  d_op dec = OP_IF_TRUE \/ d_op dec = OP_JUMP ->
  (pc < N.to_nat t /\ N.to_nat t < L) /\
  exists d', vloop f pool L (pc + d_size dec) (skipn (d_size dec) rest) d'
               ((N.to_nat t, depth - pops + pushes) :: pend_del pc pend) false = true.
Proof.
  unfold vnext. intros H Hj Ho. rewrite Hj in H.
  destruct Ho as [Ho|Ho]; rewrite Ho in H; apply andb_prop in H as [H Hv]; apply andb_prop in H as [H1 H2];
    apply Nat.ltb_lt in H1; apply Nat.ltb_lt in H2; (split; [split; assumption|eexists; exact Hv]).
Qed.

Lemma vnext_cont f pool L pc rest pend depth dec pops pushes :
  vnext f pool L pc rest pend depth dec pops pushes = true ->
  exists d' pend' lr', vloop f pool L (pc + d_size dec) (skipn (d_size dec) rest) d' pend' lr' = true /\
                       incl (pend_del pc pend) pend'.
Proof.
  intros H. destruct (falls (d_op dec)) eqn:Hf.
  - destruct (vnext_fall _ _ _ _ _ _ _ _ _ _ H Hf) as (pend' & Hv & Hi). eexists _, _, _; split; [exact Hv|exact Hi].
  - unfold vnext in H. destruct (d_op dec); try discriminate Hf.
    + apply andb_prop in H as [_ H]. eexists _, _, _; split; [exact H|apply incl_refl].
    + destruct (d_jump dec); [|discriminate]. apply andb_prop in H as [_ H].
      eexists _, _, _; split; [exact H|apply incl_tl, incl_refl].
Qed.

Lemma vloop_S f pool L pc b r d pend lr :
  vloop (S f) pool L pc (b :: r) d pend lr =
  match here d pend pc, decode (b :: r) with
  | Some depth, Some dec =>
      match effect pool dec with
      | None => false
      | Some (pops, pushes) =>
          agree pend pc (here d pend pc) && Nat.leb pops depth && vnext f pool L pc (b :: r) pend depth dec pops pushes
      end
  | _, _ => false
  end.
Proof. reflexivity. Qed.

Lemma vloop_nil f pool L pc d pend lr :
  vloop (S f) pool L pc [] d pend lr = lr && match pend with [] => true | _ => false end.
Proof. reflexivity. Qed.

Lemma vloop_inv f pool L pc rest d pend lr :
  vloop f pool L pc rest d pend lr = true -> rest <> [] ->
  exists f' depth dec pops pushes,
    f = S f' /\ here d pend pc = Some depth /\ decode rest = Some dec /\ effect pool dec = Some (pops, pushes) /\
    agree pend pc (Some depth) = true /\ pops <= depth /\
    vnext f' pool L pc rest pend depth dec pops pushes = true.
Proof.
  intros H Hne. destruct f as [|f']; [discriminate|].
  destruct rest as [|b r]; [congruence|].
  rewrite vloop_S in H.
  destruct (here d pend pc) as [depth|] eqn:Hh; [|discriminate].
  destruct (decode (b :: r)) as [dec|] eqn:Hd; [|discriminate].
  destruct (effect pool dec) as [[pops pushes]|] eqn:He; [|discriminate].
  apply andb_prop in H as [H H3]. apply andb_prop in H as [H1 H2].
  exists f', depth, dec, pops, pushes. repeat split; auto. apply Nat.leb_le; auto.
Qed.

Lemma vloop_mono_S pool L : forall f pc rest d pend lr,
  vloop f pool L pc rest d pend lr = true -> vloop (S f) pool L pc rest d pend lr = true.
Proof.
  induction f as [|f IH]; intros pc rest d pend lr H; [discriminate|].
  destruct rest as [|b r]; [rewrite vloop_nil in *; exact H|].
  rewrite vloop_S in *.
  destruct (here d pend pc) as [depth|]; [|discriminate].
  destruct (decode (b :: r)) as [dec|]; [|discriminate].
  destruct (effect pool dec) as [[pops pushes]|]; [|discriminate].
  apply andb_prop in H as [H1 H2]. rewrite H1. cbn [andb].
  destruct (is_ctl (d_op dec)) eqn:Hc.
  - unfold vnext in *. destruct (d_op dec); try discriminate Hc; try (destruct (d_jump dec); [|discriminate]);
      apply andb_prop in H2 as [H2 H3]; rewrite H2; cbn [andb]; apply IH; exact H3.
  - rewrite vnext_default in H2 by exact Hc. rewrite vnext_default by exact Hc. apply IH. exact H2.
Qed.

Lemma vloop_mono pool L f f' pc rest d pend lr :
  f <= f' -> vloop f pool L pc rest d pend lr = true -> vloop f' pool L pc rest d pend lr = true.
Proof. intros Hle. induction Hle as [|m Hm IH]; intros Hv; auto. apply vloop_mono_S. auto. Qed.

Lemma vloop_forward f pool L pc rest d pend lr dec tgt :
  vloop f pool L pc rest d pend lr = true -> decode rest = Some dec -> d_jump dec = Some tgt ->
  pc < N.to_nat tgt /\ N.to_nat tgt < L.
Proof.
  intros Hv Hdec Hj.
  assert (Hne : rest <> []) by (intro; subst; discriminate).
  destruct (vloop_inv _ _ _ _ _ _ _ _ Hv Hne) as (f' & depth & dec' & pops & pushes & _ & _ & Hdec' & _ & _ & _ & Hn).
  rewrite Hdec in Hdec'. injection Hdec' as <-.
  exact (proj1 (vnext_jump _ _ _ _ _ _ _ _ _ _ _ Hn Hj (decode_jump_op _ _ _ Hdec Hj))).
Qed.

(* The first two premises are the wording of Props/C11.v and play no part: the fact is [vloop_forward] at any state of
   the verifier's loop.  For verified code such a state exists at every pc the loop passes ([reached_fall],
   [reached_pend] below). *)
Lemma jumps_forward : forall pool code pc rest dec tgt,
  verify pool code = true ->
  rest = skipn pc code -> decode rest = Some dec -> d_jump dec = Some tgt ->
  (exists f d pend lr, vloop f pool (len code) pc rest d pend lr = true) ->
  (pc < N.to_nat tgt)%nat /\ (N.to_nat tgt < len code)%nat.
Proof. intros pool code pc rest dec tgt _ _ Hdec Hj (f & d & pend & lr & Hv). exact (vloop_forward _ _ _ _ _ _ _ _ _ _ Hv Hdec Hj). Qed.

Definition stack_fault (k : faultk) : Prop := match k with XUnderflow | XOpcode => True | _ => False end.
Local Notation clean := (avoid (fun _ : failk => False) stack_fault).

Section Safe.
Variable ops : numops.
Variable orc : oracles.
Variable rho : venv.
Variable pool : list const.
Variable limit : option nat.

Hypothesis Hpool : forall i body rt, nth_error pool i = Some (CThunk body rt) -> verify pool body = true.

Definition sv_ok (x : sval) : Prop := match x with STh body _ => verify pool body = true | SV _ => True end.
Definition stack_ok (s : list sval) : Prop := Forall sv_ok s.

Lemma clean_bind_ret {X Y} (x : X) (f : X -> M Y) : clean (f x) -> clean (mbind (ret x) f).
Proof. intros H. rewrite mbind_ret_l. exact H. Qed.

Lemma clean_read16 {Y} hi lo r (f : N * list N -> M Y) :
  clean (f ((hi * 256 + lo)%N, r)) -> clean (mbind (read16 (hi :: lo :: r)) f).
Proof. apply clean_bind_ret. Qed.
Lemma clean_read8 {Y} x r (f : N * list N -> M Y) : clean (f (x, r)) -> clean (mbind (read8 (x :: r)) f).
Proof. apply clean_bind_ret. Qed.
(* a constant index outside the pool stops the VM with XOther *)
Lemma clean_read_const {Y} hi lo r (f : const * list N -> M Y) :
  (forall c, nth_error pool (N.to_nat (hi * 256 + lo)) = Some c -> clean (f (c, r))) ->
  clean (mbind (read_const pool (hi :: lo :: r)) f).
Proof.
  intros H. unfold read_const, read16. rewrite mbind_ret_l. cbv beta iota.
  destruct (nth_error pool (N.to_nat (hi * 256 + lo))) as [c|]; [apply clean_bind_ret, H; reflexivity|].
  apply av_bind_eq; [apply av_fault; intros []|]. intros t y E. discriminate E.
Qed.

Lemma clean_pop_n {Y} n s (f : list sval * list sval -> M Y) :
  n <= len s -> clean (f (rev (firstn n s), skipn n s)) -> clean (mbind (pop_n n s []) f).
Proof. intros Hn H. rewrite pop_n_ok by auto. rewrite app_nil_r. apply clean_bind_ret. exact H. Qed.
Lemma clean_pop_val {Y} x s (f : val * list sval -> M Y) :
  (forall v, x = SV v -> clean (f (v, s))) -> clean (mbind (pop_val (x :: s)) f).
Proof.
  intros H. unfold pop_val. cbn [pop]. rewrite mbind_ret_l. destruct x as [v|body rt]; cbv beta iota.
  - apply clean_bind_ret. auto.
  - apply av_bind_eq; [apply av_fault; intros []|]. intros t y E. discriminate E.
Qed.
Lemma clean_vals_of xs : clean (vals_of xs).
Proof. apply av_mmapM, Forall_forall. intros x _. destruct x; [apply av_ret|apply av_fault; intros []]. Qed.

Lemma clean_pop_vals {Y} n s (g : list sval -> list val -> M Y) :
  n <= len s -> (forall vs, clean (g (skipn n s) vs)) ->
  clean (let^ (xs, s1) := pop_n n s [] in let^ vs := vals_of xs in g s1 vs).
Proof. intros Hn H. apply clean_pop_n; [exact Hn|]. cbv beta iota. apply av_bind; [apply clean_vals_of|exact H]. Qed.

Lemma len_firstn_skipn {X} n (s : list X) : n <= len s -> len (skipn n s) = len s - n.
Proof. unfold len. intros. apply skipn_length. Qed.

Section LoopSafe.
Variable runf : list N -> M val.
Variable code : list N.
Hypothesis Hrunf : forall body, verify pool body = true -> clean (runf body).

Lemma ths_clean xs t ths :
  stack_ok xs -> mmapM (thunk_of runf) xs = (t, OVal ths) -> Forall (fun th => clean (th tt)) ths.
Proof.
  intros Hok H. refine (Forall2_Forall sv_ok _ _ _ _ _ (mmapM_Forall2 _ _ _ _ H) Hok).
  intros [v|body rt] th [t' E] Hx; [discriminate E|]. injection E as _ <-. exact (Hrunf _ Hx).
Qed.

Lemma clean_vm_entries : forall vs acc, clean (vm_entries ops vs acc).
Proof.
  induction vs as [vs IH] using (induction_ltof1 _ (@List.length val)). intros acc.
  destruct vs as [|k [|v rr]]; try apply av_ret. apply av_bind; [apply av_key_of; auto|]. intros kk.
  apply IH. unfold ltof. cbn [List.length]. lia.
Qed.

Ltac lenlia := unfold len in *; cbn [List.length] in *; try rewrite skipn_length; lia.

(* That [effect] has [pops <= depth] makes every pop succeed; every pool entry the handler reads is one [effect] has
   looked at, so it is of the kind the handler expects; what is pushed is a value, or a thunk constant of the pool. *)
Lemma step_safe cont b r dec pops pushes stack :
  decode (b :: r) = Some dec -> effect pool dec = Some (pops, pushes) ->
  pops <= len stack -> stack_ok stack ->
  (forall s', len s' = len stack - pops + pushes -> stack_ok s' -> falls (d_op dec) = true ->
              clean (cont (skipn (d_size dec) (b :: r)) s')) ->
  (forall t s', d_jump dec = Some t -> len s' = len stack - pops + pushes -> stack_ok s' ->
                clean (cont (skipn (N.to_nat t) code) s')) ->
  clean (vop ops orc rho pool runf code cont (d_op dec) r stack).
Proof.
  intros Hdec Heff Hpops Hst Hfall Hjump.
  pose proof (decode_op_of _ _ _ Hdec) as Ho. remember (d_op dec) as o eqn:Eo in *.
  rewrite decode_cons, Ho in Hdec. clear Ho Eo.
  assert (Hpush : forall x, pushes = 1 -> sv_ok x -> falls o = true ->
                    clean (cont (skipn (d_size dec) (b :: r)) (x :: skipn pops stack))).
  { intros x -> Hx Hf.
    apply Hfall; [lenlia|constructor; [exact Hx|exact (proj2 (Forall_firstn_skipn _ _ _ Hst))]|exact Hf]. }
  assert (Hval : forall v, pushes = 1 -> falls o = true -> clean (cont (skipn (d_size dec) (b :: r)) (SV v :: skipn pops stack))).
  { intros v Hp Hf. exact (Hpush (SV v) Hp I Hf). }
  destruct (intrinsic_sem o) as [[bf k]|] eqn:Hi.
  - destruct (intrinsic_effect _ _ _ Hi) as (Hops & Hctl & [[-> ->]|[Hna He]]).
    + injection Hdec as <-. injection Heff as <- <-. apply Hfall; [lenlia|exact Hst|reflexivity].
    + rewrite Hops in Hdec. injection Hdec as <-. rewrite He in Heff. injection Heff as <- <-.
      rewrite (vop_intrinsic _ _ _ _ _ _ _ _ _ _ _ _ Hi Hna).
      apply clean_pop_vals; [exact Hpops|]. intros vs. apply av_bind; [apply av_bsem; auto|]. intros res.
      apply Hval; [reflexivity|exact (not_ctl_falls _ Hctl)].
  - destruct o; try discriminate Hi; cbv beta iota zeta delta [operands decode_go] in Hdec;
      (* as many operand bytes as the layout says *)
      repeat (match type of Hdec with match ?l with _ => _ end = _ => destruct l as [|? ?] end; try discriminate Hdec);
      injection Hdec as <-; cbn [effect d_op d_const d_med d_b] in Heff; cbn [vop].
    + (* NOP *) injection Heff as <- <-. apply Hfall; [lenlia|exact Hst|reflexivity].
    + (* RETURN *) injection Heff as <- <-. destruct stack as [|x s]; [lenlia|]. apply clean_pop_val. intros v _. apply av_ret.
    + (* CONST *) apply clean_read_const. intros c Hn. rewrite Hn in Heff. cbv beta iota.
      destruct c; try discriminate Heff; injection Heff as <- <-; apply Hpush; try reflexivity; try exact I.
      exact (Hpool _ _ _ Hn).
    + (* LOAD *) apply clean_read_const. intros c Hn. rewrite Hn in Heff. cbv beta iota.
      destruct c; try discriminate Heff. injection Heff as <- <-. destruct (assoc s rho); [|apply av_fault; intros []].
      apply Hval; reflexivity.
    + (* NEW_LIST *) apply clean_read_const. intros c Hn. rewrite Hn in Heff. cbv beta iota. apply clean_read16. cbv beta iota.
      destruct c as [| | |ty|]; try discriminate Heff. destruct ty; try discriminate Heff. injection Heff as <- <-.
      apply clean_pop_vals; [exact Hpops|]. intros vs. apply Hval; reflexivity.
    + (* NEW_MAP *) apply clean_read_const. intros c Hn. rewrite Hn in Heff. cbv beta iota. apply clean_read16. cbv beta iota.
      destruct c as [| | |ty|]; try discriminate Heff. destruct ty; try discriminate Heff. injection Heff as <- <-.
      apply clean_pop_vals; [exact Hpops|]. intros vs. apply av_bind; [apply clean_vm_entries|]. intros entries.
      apply Hval; reflexivity.
    + (* NEW_OBJ *) apply clean_read_const. intros c Hn. rewrite Hn in Heff. cbv beta iota.
      destruct c as [| | |ty|]; try discriminate Heff. destruct ty; try discriminate Heff. injection Heff as <- <-.
      apply clean_pop_vals; [exact Hpops|]. intros vs. apply Hval; reflexivity.
    + (* LIST_LOAD *) injection Heff as <- <-. destruct stack as [|x [|y s]]; try lenlia.
      apply clean_pop_val. intros v _. cbv beta iota. apply av_bind; [apply av_as_num; auto|]. intros nb.
      apply clean_pop_val. intros lv _. cbv beta iota. apply av_bind; [apply av_as_list; auto|]. intros vs.
      match goal with |- clean (if ?c then _ else _) => destruct c end; [apply av_fail; intros []|].
      match goal with |- clean (match ?c with _ => _ end) => destruct c end; [|apply av_fail; intros []].
      apply Hval; reflexivity.
    + (* MAP_LOAD *) injection Heff as <- <-. destruct stack as [|x [|y s]]; try lenlia.
      apply clean_pop_val. intros v _. cbv beta iota.
      apply clean_pop_val. intros lv _. cbv beta iota. apply av_bind; [apply av_as_map; auto|]. intros kvs.
      apply av_bind; [apply av_key_of; auto|]. intros kk.
      match goal with |- clean (match ?c with _ => _ end) => destruct c end; [|apply av_fail; intros []].
      apply Hval; reflexivity.
    + (* OBJ_LOAD *) apply clean_read16. cbv beta iota. apply clean_read_const. intros c Hn. rewrite Hn in Heff. cbv beta iota.
      destruct c; try discriminate Heff. injection Heff as <- <-. destruct stack as [|y st]; [lenlia|].
      apply clean_pop_val. intros ov _. cbv beta iota. destruct ov; try (apply av_fault; intros []).
      match goal with |- clean (match ?c with _ => _ end) => destruct c end; [|apply av_fault; intros []].
      apply Hval; reflexivity.
    + (* CALL_BY_VALUE *) apply clean_read_const. intros c Hn. rewrite Hn in Heff. cbv beta iota. apply clean_read8. cbv beta iota.
      destruct c as [|sg| | |]; try discriminate Heff. destruct (_ && _) in Heff; [|discriminate Heff]. injection Heff as <- <-.
      apply clean_pop_vals; [exact Hpops|]. intros vs. apply av_bind; [apply av_apply_strict; auto|]. intros res.
      apply Hval; reflexivity.
    + (* CALL_BY_NEED *) apply clean_read_const. intros c Hn. rewrite Hn in Heff. cbv beta iota. apply clean_read8. cbv beta iota.
      destruct c as [|sg| | |]; try discriminate Heff. destruct (_ && _) in Heff; [|discriminate Heff]. injection Heff as <- <-.
      apply clean_pop_n; [exact Hpops|]. cbv beta iota. apply av_bind_eq.
      { apply av_mmapM, Forall_forall. intros y _. destruct y; [apply av_fault; intros []|apply av_ret]. }
      intros t ths Hths. apply av_bind; [|intros res; apply Hval; reflexivity].
      apply av_lazy_call; auto. eapply ths_clean; [|exact Hths]. exact (Forall_rev (proj1 (Forall_firstn_skipn _ _ _ Hst))).
    + (* DYNAMIC_CALL *) injection Heff as <- <-. apply clean_read8. cbv beta iota.
      apply clean_pop_vals; [lia|]. intros vs.
      match goal with |- context [skipn ?k stack] => set (na := k) in * end.
      pose proof (skipn_length na stack) as Hl. pose proof (proj2 (Forall_firstn_skipn _ na _ Hst)) as Hst1.
      destruct (skipn na stack) as [|y s]; [lenlia|]. inversion Hst1 as [|? ? _ Hst2]; subst.
      apply clean_pop_val. intros fv _. cbv beta iota.
      destruct fv as [| | | | | | | |fty name lz]; try (apply av_fault; intros []).
      destruct fty; try (apply av_fault; intros []). destruct lz; [apply av_fault; intros []|].
      apply av_bind; [apply av_apply_strict; auto|]. intros res.
      apply Hfall; [lenlia|constructor; [exact I|exact Hst2]|reflexivity].
    + (* IF_TRUE *) injection Heff as <- <-. apply clean_read16. cbv beta iota. destruct stack as [|x s]; [lenlia|].
      inversion Hst as [|? ? _ Hst1]; subst.
      apply clean_pop_val. intros v _. cbv beta iota. apply av_bind; [apply av_as_bool; auto|]. intros [|].
      * apply Hfall; [lenlia|exact Hst1|reflexivity].
      * apply Hjump; [reflexivity|lenlia|exact Hst1].
    + (* JUMP *) injection Heff as <- <-. apply clean_read16. cbv beta iota. apply Hjump; [reflexivity|lenlia|exact Hst].
Qed.

Definition reached (pc dep : nat) : Prop :=
  exists f d pend lr, vloop f pool (len code) pc (skipn pc code) d pend lr = true /\ skipn pc code <> [] /\
                      here d pend pc = Some dep.

Lemma reached_fall f pc nd pend :
  vloop f pool (len code) pc (skipn pc code) (Some nd) pend false = true -> reached pc nd.
Proof.
  intros H.
  assert (Hne : skipn pc code <> []).
  { intros E. rewrite E in H. destruct f; [discriminate|]. rewrite vloop_nil in H. discriminate. }
  destruct (vloop_inv _ _ _ _ _ _ _ _ H Hne) as (f' & depth & dec & pops & pushes & _ & Hh & _).
  exists f, (Some nd), pend, false. repeat split; auto.
  unfold here in *. destruct (pend_get pc pend); [destruct (Nat.eqb nd n)|]; congruence.
Qed.

(* a promise is kept until the verifier stands at its pc, and there it is checked against the depth *)
Lemma reached_pend : forall f pc d pend lr t nd,
  vloop f pool (len code) pc (skipn pc code) d pend lr = true -> In (t, nd) pend -> reached t nd.
Proof.
  induction f as [|f IH]; intros pc d pend lr t nd H Hin; [discriminate|].
  destruct (skipn pc code) as [|b r] eqn:E.
  - rewrite vloop_nil in H. destruct pend; [destruct Hin|]. rewrite andb_false_r in H. discriminate.
  - assert (Hne : b :: r <> []) by discriminate.
    destruct (vloop_inv _ _ _ _ _ _ _ _ H Hne) as (f' & depth & dec & pops & pushes & Hf & Hh & Hdec & Heff & Hag & Hle & Hn).
    injection Hf as <-.
    destruct (Nat.eqb t pc) eqn:Etp.
    + apply Nat.eqb_eq in Etp. subst t.
      unfold agree in Hag. rewrite forallb_forall in Hag. specialize (Hag _ Hin). cbn [fst snd] in Hag.
      rewrite Nat.eqb_refl in Hag. apply Nat.eqb_eq in Hag. subst nd.
      exists (S f), d, pend, lr. rewrite E. repeat split; auto.
    + destruct (vnext_cont _ _ _ _ _ _ _ _ _ _ Hn) as (d' & pend' & lr' & Hv & Hincl).
      rewrite <- E in Hv. rewrite skipn_add in Hv.
      eapply IH; [exact Hv|]. apply Hincl. unfold pend_del. apply filter_In. split; auto.
      cbn [fst]. rewrite Etp. reflexivity.
Qed.

Lemma loop_safe : forall g pc stack n,
  reached pc (len stack) -> stack_ok stack -> clean (vmloop ops orc rho pool runf code g (skipn pc code) stack n).
Proof.
  induction g as [|g IH]; intros pc stack n (f & d & pend & lr & Hv & Hne & Hh) Hst; [apply av_fault; intros []|].
  destruct (vloop_inv _ _ _ _ _ _ _ _ Hv Hne) as (f' & depth & dec & pops & pushes & _ & Hh' & Hdec & Heff & _ & Hle & Hn).
  rewrite Hh in Hh'. injection Hh' as <-.
  destruct (skipn pc code) as [|b r] eqn:E; [congruence|]. rewrite <- E in Hn.
  rewrite vmloop_S, (decode_op_of _ _ _ Hdec).
  set (K := fun r0 s => vmloop ops orc rho pool runf code g r0 s (option_map pred n)).
  assert (Hstep : clean (vop ops orc rho pool runf code K (d_op dec) r stack)).
  { apply (step_safe K b r dec pops pushes); auto; unfold K.
    - intros s' Hlen Hst' Hfl.
      destruct (vnext_fall _ _ _ _ _ _ _ _ _ _ Hn Hfl) as (pend' & Hv' & _). rewrite skipn_add in Hv'.
      rewrite <- E, skipn_add. apply IH; [|exact Hst']. rewrite Hlen. exact (reached_fall _ _ _ _ Hv').
    - intros t s' Hj Hlen Hst'.
      destruct (vnext_jump _ _ _ _ _ _ _ _ _ _ _ Hn Hj (decode_jump_op _ _ _ Hdec Hj)) as (_ & d' & Hv').
      rewrite skipn_add in Hv'. apply IH; [|exact Hst']. rewrite Hlen.
      exact (reached_pend _ _ _ _ _ _ _ Hv' (or_introl eq_refl)). }
  clearbody K. destruct n as [[|m]|]; [apply av_fault; intros []|exact Hstep|exact Hstep].
Qed.

End LoopSafe.

Lemma run_safe : forall f code, verify pool code = true -> clean (vm_run ops orc rho pool limit f code).
Proof.
  induction f as [|f IH]; intros code Hv.
  - apply av_fault; intros [].
  - rewrite vm_run_S.
    apply (loop_safe (vm_run ops orc rho pool limit f) code IH (4 * S (len code)) 0 [] limit); [|constructor].
    unfold verify in Hv. eapply reached_fall. exact Hv.
Qed.

End Safe.

Lemma verified_safe : forall (ops : numops) (orc : oracles) rho pool lim f code t k,
  verify_all code pool = true ->
  vm_run ops orc rho pool lim f code = (t, OFault k) ->
  k <> XUnderflow /\ k <> XOpcode.
Proof.
  intros ops orc rho pool lim f code t k Hv Hrun.
  unfold verify_all in Hv. apply andb_prop in Hv as [Hc Hp].
  assert (Hk : ~ stack_fault k).
  { eapply avoid_fault; [|exact Hrun]. apply run_safe; [|exact Hc].
    intros i body rt Hn. rewrite forallb_forall in Hp. apply nth_error_In in Hn. exact (Hp _ Hn). }
  split; intros ->; apply Hk; exact I.
Qed.

(* Several jumps may promise the same depth to the position behind the fragment (the JUMP over a second branch,
   conditionals that end at the same place), so the continuation has to accept any number [j] of equal promises.  One
   unit of fuel per byte is enough; [k <> []] because the verifier accepts the end of the code only behind RETURN. *)
Definition FR (pool : list const) (pc : nat) (frag : list N) (a b : nat) : Prop :=
  forall dep L k f d pend lr,
    k <> [] -> pc + len frag < L ->
    here d pend pc = Some (a + dep) -> agree pend pc (Some (a + dep)) = true ->
    (forall x, In x (pend_del pc pend) -> pc + len frag <= fst x) ->
    (forall j, vloop f pool L (pc + len frag) k (Some (b + dep))
                     (repeat (pc + len frag, b + dep) j ++ pend_del pc pend) false = true) ->
    vloop (len frag + f) pool L pc (frag ++ k) d pend lr = true.

Lemma len_app {X} (a b : list X) : len (a ++ b) = len a + len b.
Proof. unfold len. apply app_length. Qed.

(* [j] promises of [h] to [pc] in front of promises to other places: met at [pc], and gone behind it *)
Lemma promises_met pc h j P : (forall x, In x P -> fst x <> pc) ->
  here (Some h) (repeat (pc, h) j ++ P) pc = Some h /\ agree (repeat (pc, h) j ++ P) pc (Some h) = true /\
  pend_del pc (repeat (pc, h) j ++ P) = P.
Proof.
  intros HP. unfold here, agree, pend_del.
  assert (H0 : pend_get pc P = None /\
               forallb (fun x => if Nat.eqb (fst x) pc then Nat.eqb (snd x) h else true) P = true /\
               filter (fun x => negb (Nat.eqb (fst x) pc)) P = P).
  { induction P as [|[p d] r IH]; [repeat split|].
    assert (E : Nat.eqb p pc = false) by (apply Nat.eqb_neq; exact (HP (p, d) (or_introl eq_refl))).
    destruct (IH (fun x Hx => HP x (or_intror Hx))) as (I1 & I2 & I3).
    cbn [pend_get forallb filter fst snd]. rewrite E. cbn [negb andb]. rewrite I3. auto. }
  destruct H0 as (G & A & D). induction j as [|j (Ih & Ia & Id)]; cbn [repeat app].
  - rewrite G. auto.
  - cbn [pend_get forallb filter fst snd]. rewrite !Nat.eqb_refl. cbn [negb andb]. auto.
Qed.

(* were [f2] empty, the middle would be the end, and a promise made to the end would be met in the middle *)
Lemma FR_app pool pc f1 f2 a b c :
  f2 <> [] -> FR pool pc f1 a b -> FR pool (pc + len f1) f2 b c -> FR pool pc (f1 ++ f2) a c.
Proof.
  intros Hne H1 H2 dep L k f d pend lr Hk HL Hh Ha Hp Hc. unfold FR in H1, H2.
  rewrite len_app in *. rewrite <- app_assoc. rewrite <- Nat.add_assoc.
  assert (Hl2 : 0 < len f2) by (destruct f2; [congruence|cbn; lia]).
  apply (H1 dep); auto.
  - destruct f2; [congruence|discriminate].
  - lia.
  - intros x Hx. specialize (Hp x Hx). lia.
  - intros j.
    destruct (promises_met (pc + len f1) (b + dep) j (pend_del pc pend)) as (Mh & Ma & Md).
    { intros x Hx. specialize (Hp x Hx). lia. }
    apply (H2 dep); [exact Hk|lia|exact Mh|exact Ma| |]; rewrite Md.
    + intros x Hx. specialize (Hp x Hx). lia.
    + intros j2. rewrite <- Nat.add_assoc. apply Hc.
Qed.

Lemma FR_frame pool pc frag a b c : FR pool pc frag a b -> FR pool pc frag (a + c) (b + c).
Proof.
  intros H dep L k f d pend lr Hk HL Hh Ha Hp Hc. unfold FR in H.
  rewrite <- Nat.add_assoc in Hh, Ha.
  apply (H (c + dep) L k f d pend lr); auto.
  intros j. rewrite Nat.add_assoc. apply Hc.
Qed.

Definition put (k : operand) (v : N) (acc : decoded) : decoded :=
  match k with
  | Oc => mkDec (d_op acc) (Some v) (d_med acc) (d_jump acc) (d_b acc) (S (S (d_size acc)))
  | Om => mkDec (d_op acc) (d_const acc) (Some v) (d_jump acc) (d_b acc) (S (S (d_size acc)))
  | Oj => mkDec (d_op acc) (d_const acc) (d_med acc) (Some v) (d_b acc) (S (S (d_size acc)))
  | Ob => mkDec (d_op acc) (d_const acc) (d_med acc) (d_jump acc) (Some v) (S (d_size acc))
  end.
Definition enc (k : operand) (v : N) : list N := match k with Ob => [v] | _ => b16 v end.
Fixpoint encs (ks : list operand) (vs : list N) {struct vs} : list N :=
  match vs, ks with v :: vs', k :: ks' => enc k v ++ encs ks' vs' | _, _ => [] end.
Fixpoint puts (ks : list operand) (vs : list N) (acc : decoded) {struct vs} : decoded :=
  match vs, ks with v :: vs', k :: ks' => puts ks' vs' (put k v acc) | _, _ => acc end.

Lemma decode_encs ks : forall vs acc rest, List.length vs = List.length ks ->
  decode_go ks (encs ks vs ++ rest) acc = Some (puts ks vs acc) /\
  d_size (puts ks vs acc) = d_size acc + len (encs ks vs) /\ d_op (puts ks vs acc) = d_op acc.
Proof.
  induction ks as [|k ks IH]; intros [|v vs] acc rest E; try discriminate E.
  - cbn. auto.
  - injection E as E. destruct (IH vs (put k v acc) rest E) as (H1 & H2 & H3).
    cbn [encs puts]. rewrite <- app_assoc, len_app, H2, H3.
    destruct k; cbn [enc b16 app decode_go]; rewrite ?b16_val; (split; [exact H1|split; [cbn; lia|reflexivity]]).
Qed.

Lemma FR_op pool pc o vs pops pushes a b :
  List.length vs = List.length (operands o) -> is_ctl o = false ->
  effect pool (puts (operands o) vs (mkDec o None None None None 1)) = Some (pops, pushes) ->
  pops <= a -> b = a - pops + pushes ->
  FR pool pc (op_byte o :: encs (operands o) vs) a b.
Proof.
  intros Hvs Hctl Heff Hpops Hb dep L k f d pend lr Hk HL Hh Ha Hp Hc.
  destruct (decode_encs _ vs (mkDec o None None None None 1) k Hvs) as (Hdec & Hsz & Hop).
  set (ins := encs (operands o) vs) in *. change (len (op_byte o :: ins)) with (S (len ins)) in *.
  cbn [Nat.add app]. rewrite vloop_S, Hh, decode_cons, decode_op_byte, Hdec, Heff, Ha.
  rewrite (proj2 (Nat.leb_le pops (a + dep))) by lia. cbn [andb].
  rewrite vnext_default by (rewrite Hop; exact Hctl). rewrite Hsz. cbn [d_size Nat.add].
  change (op_byte o :: ins ++ k) with ((op_byte o :: ins) ++ k). rewrite (skipn_len_app (op_byte o :: ins)).
  specialize (Hc 0). cbn [repeat app] in Hc.
  replace (a + dep - pops + pushes) with (b + dep) by lia.
  exact (vloop_mono _ _ _ _ _ _ _ _ _ (Nat.le_add_l f (len ins)) Hc).
Qed.

Lemma vloop_if_true f pool L pc t k d pend lr dep :
  here d pend pc = Some (S dep) -> agree pend pc (Some (S dep)) = true -> pc < t -> t < L ->
  vloop f pool L (pc + 3) k (Some dep) ((t, dep) :: pend_del pc pend) false = true ->
  vloop (S f) pool L pc (op_byte OP_IF_TRUE :: b16 (N.of_nat t) ++ k) d pend lr = true.
Proof.
  intros Hh Ha H1 H2 Hc. rewrite vloop_S, Hh, decode_cons, decode_op_byte. cbn [operands b16 app decode_go effect d_op].
  rewrite Ha. cbn [andb Nat.leb]. unfold vnext. cbn [d_op d_jump d_size skipn]. rewrite b16_val, Nat2N.id.
  rewrite (proj2 (Nat.ltb_lt _ _) H1), (proj2 (Nat.ltb_lt _ _) H2). cbn [andb].
  replace (S dep - 1 + 0) with dep by lia. exact Hc.
Qed.

Lemma vloop_jump f pool L pc t k d pend lr dep :
  here d pend pc = Some dep -> agree pend pc (Some dep) = true -> pc < t -> t < L ->
  vloop f pool L (pc + 3) k None ((t, dep) :: pend_del pc pend) false = true ->
  vloop (S f) pool L pc (op_byte OP_JUMP :: b16 (N.of_nat t) ++ k) d pend lr = true.
Proof.
  intros Hh Ha H1 H2 Hc. rewrite vloop_S, Hh, decode_cons, decode_op_byte. cbn [operands b16 app decode_go effect d_op].
  rewrite Ha. cbn [andb Nat.leb]. unfold vnext. cbn [d_op d_jump d_size skipn]. rewrite b16_val, Nat2N.id.
  rewrite (proj2 (Nat.ltb_lt _ _) H1), (proj2 (Nat.ltb_lt _ _) H2). cbn [andb].
  replace (dep - 0 + 0) with dep by lia. exact Hc.
Qed.

(* IF_TRUE promises the second branch the depth at the start of the first, JUMP promises the end one value more; both
   promises are met where they point *)
Lemma FR_cond pool pc fc ft fe : fe <> [] ->
  FR pool pc fc 0 1 -> FR pool (pc + len fc + 3) ft 0 1 -> FR pool (pc + len fc + 3 + len ft + 3) fe 0 1 ->
  FR pool pc (cond_code pc fc ft fe) 0 1.
Proof.
  intros Hfene Hfc Hft Hfe dep L k f d pend lr Hk HL Hh Ha Hp Hc. unfold FR in Hfc, Hft, Hfe.
  cbv beta zeta delta [cond_code] in *. cbn [app] in *. fold (len fc) (len ft) (len fe) in *.
  assert (Hlfe : 0 < len fe) by (destruct fe; [congruence|cbn; lia]).
  assert (Hlen : forall a b, len (fc ++ op_byte OP_IF_TRUE :: b16 a ++ ft ++ op_byte OP_JUMP :: b16 b ++ fe) =
                             len fc + 3 + len ft + 3 + len fe) by (intros a b; unfold len; lens; lia).
  rewrite Hlen in *.
  remember (pc + len fc + 3) as pc2 eqn:Epc2. remember (pc2 + len ft + 3) as bf eqn:Ebf. remember (bf + len fe) as nx eqn:Enx.
  replace (pc + (len fc + 3 + len ft + 3 + len fe)) with nx in * by lia.
  set (P := pend_del pc pend) in *.
  assert (HP : forall q, q < nx -> forall x, In x P -> fst x <> q).
  { intros q Hq x Hx. specialize (Hp x Hx). lia. }
  apply vloop_mono with (f := len fc + S (len ft + S (len fe + f))); [lia|].
  repeat (rewrite <- app_assoc || rewrite <- app_comm_cons).
  apply (Hfc dep); auto; [discriminate|lia|intros x Hx; specialize (Hp x Hx); lia|].
  intros j1. fold P. cbn [Nat.add].
  destruct (promises_met (pc + len fc) (S dep) j1 P (HP (pc + len fc) ltac:(lia))) as (Mh & Ma & Md).
  apply vloop_if_true with (dep := dep); [exact Mh|exact Ma|lia|lia|]. rewrite Md, <- Epc2.
  assert (HP2 : forall q, q <> bf -> q < nx -> forall x, In x ((bf, dep) :: P) -> fst x <> q).
  { intros q Hq1 Hq2 x [Hx|Hx]; [subst x; cbn; lia|apply HP; auto]. }
  destruct (promises_met pc2 dep 0 ((bf, dep) :: P) (HP2 pc2 ltac:(lia) ltac:(lia))) as (Mh2 & Ma2 & Md2).
  cbn [repeat app] in Mh2, Ma2, Md2.
  apply (Hft dep); [discriminate|lia|exact Mh2|exact Ma2| |]; rewrite Md2.
  - intros x [Hx|Hx]; [subst x; cbn; lia|specialize (Hp x Hx); lia].
  - intros j2. cbn [Nat.add].
    destruct (promises_met (pc2 + len ft) (S dep) j2 ((bf, dep) :: P) (HP2 (pc2 + len ft) ltac:(lia) ltac:(lia))) as (Mh3 & Ma3 & Md3).
    apply vloop_jump with (dep := S dep); [exact Mh3|exact Ma3|lia|lia|]. rewrite Md3, <- Ebf.
    (* at the second branch the promise of IF_TRUE is met, that of JUMP stays *)
    destruct (promises_met bf dep 0 P (HP bf ltac:(lia))) as (_ & Ma4 & Md4). cbn [repeat app] in Ma4, Md4.
    assert (E5 : Nat.eqb nx bf = false) by (apply Nat.eqb_neq; lia).
    assert (Ed : pend_del bf ((nx, S dep) :: (bf, dep) :: P) = (nx, S dep) :: P).
    { unfold pend_del in Md4 |- *. cbn [filter fst]. rewrite E5, Nat.eqb_refl. cbn [negb]. f_equal. exact Md4. }
    apply (Hfe dep); auto.
    + unfold here. cbn [pend_get]. rewrite E5, Nat.eqb_refl. reflexivity.
    + unfold agree in Ma4 |- *. cbn [forallb fst snd]. rewrite E5, !Nat.eqb_refl. cbn [andb]. exact Ma4.
    + rewrite Ed. intros x [Hx|Hx]; [subst x; cbn; lia|specialize (Hp x Hx); lia].
    + intros j3. rewrite Ed, repeat_snoc_app. apply Hc.
Qed.

Lemma verify_of_FR pool frag : FR pool 0 frag 0 1 -> verify pool (frag ++ [op_byte OP_RETURN]) = true.
Proof.
  intros H. unfold verify, FR in *.
  rewrite len_app. change (len [op_byte OP_RETURN]) with 1.
  replace (S (len frag + 1)) with (len frag + 2) by lia.
  apply (H 0); auto.
  - discriminate.
  - lia.
  - intros x [].
  - intros j. cbn [Nat.add pend_del filter].
    destruct (promises_met (len frag) 1 j [] (fun x (H : In x []) => match H with end)) as (Mh & Ma & Md).
    rewrite vloop_S, Mh, decode_cons, decode_op_byte. cbn [operands decode_go effect d_op].
    rewrite Ma. cbn [andb Nat.leb]. unfold vnext. cbn [d_op d_size skipn Nat.eqb andb]. rewrite Md. reflexivity.
Qed.

Inductive awf (fe : fenv) : aexpr -> Prop :=
| W_str v : awf fe (AStr v)
| W_num t n : awf fe (ANum t n)
| W_time t : awf fe (ATime t)
| W_bool b : awf fe (ABool b)
| W_list t es : (exists e, t = TList e) -> Forall (awf fe) es -> awf fe (AList t es)
| W_map t kvs : (exists k v, t = TMap k v) -> Forall (awf fe) (flatten kvs) -> awf fe (AMap t kvs)
| W_obj t tfs fs : t = TObj tfs -> len tfs = len fs -> Forall (awf fe) (map snd fs) -> awf fe (AObj t fs)
| W_ident c n : awf fe (AIdent c n)
| W_call c key idx fty callee args :
    awf fe callee -> Forall (awf fe) args ->
    (String.eqb key "" = false -> forall sg, lookup_fn fe key idx = Some sg -> len (s_params sg) = len args) ->
    awf fe (ACall c key idx fty callee args)
| W_sub c vty v i : awf fe v -> awf fe i -> awf fe (ASub c vty v i)
| W_member c oty idx o n : awf fe o -> awf fe (AMember c oty idx o n).

Lemma awf_inv fe a : awf fe a ->
  match a with
  | AList t es => (exists e, t = TList e) /\ Forall (awf fe) es
  | AMap t kvs => (exists k v, t = TMap k v) /\ Forall (awf fe) (flatten kvs)
  | AObj t fs => (exists tfs, t = TObj tfs /\ len tfs = len fs) /\ Forall (awf fe) (map snd fs)
  | ACall c key idx fty callee args => awf fe callee /\ Forall (awf fe) args /\
      (String.eqb key "" = false -> forall sg, lookup_fn fe key idx = Some sg -> len (s_params sg) = len args)
  | ASub c vty v i => awf fe v /\ awf fe i
  | AMember c oty idx o n => awf fe o
  | _ => True
  end.
Proof. destruct 1; eauto 6. Qed.

Section CheckAwf.
Variables (fe : fenv) (G : tenv) (fuel : nat) (fresh : N).
Hypothesis Hfe : fenv_ok fe = true.
Hypothesis HG : tenv_ok G = true.
Hypothesis Hfr : fresh_ok fe fresh.

Lemma check_awf e a T : check fe G fuel fresh e = COk (a, T) -> awf fe a.
Proof.
  intros HC.
  refine (proj1 (C05Proofs.check_ind fe G fuel fresh Hfe HG Hfr (fun _ a _ => awf fe a) _ _ _ _ _ _ _ _ _ _ _ _ _ _ e a T HC));
    try (intros; constructor; assumption).
  - intros p. constructor; [exists TBot; reflexivity|constructor].
  - intros p e0 rest a0 t0 ars H0 _ Hr. constructor; [exists t0; reflexivity|]. constructor; [exact H0|].
    eapply Forall2_Forall_r; [exact Hr|]. intros x ax (t & Ht & _). exact Ht.
  - intros p. constructor; [exists TBot, TBot; reflexivity|constructor].
  - intros p k0 v0 rest ak0 kt av0 vt ars Hk _ _ Hv _ Hr. constructor; [exists kt, vt; reflexivity|].
    apply Forall_flatten. constructor; [split; assumption|]. eapply Forall2_Forall_r; [exact Hr|]. intros kv akv (t1 & t2 & H1 & _ & _ & H2 & _). split; assumption.
  - intros p fs afs HF _ _. eapply W_obj; [reflexivity|unfold len; rewrite !map_length; reflexivity|].
    rewrite map_map. apply Forall_map. eapply Forall2_Forall_r; [exact HF|]. intros f z (_ & Hz & _). exact Hz.
  - intros p col pn n args aargs key idx ps rt HF ER EM.
    constructor; [constructor|apply Forall_map; eapply Forall2_Forall_r; [exact HF|]; intros x z [Hz _]; exact Hz|].
    intros _ sg HL. unfold len. rewrite map_length, <- (map_length snd aargs).
    exact (C01Proofs.static_call_arity _ _ _ _ _ _ _ _ _ _ Hfe Hfr (C05Proofs.args_ok _ _ _ HF) ER EM HL).
Qed.
End CheckAwf.

Definition thunks_ok (pool p : list const) : Prop := forall body rt, In (CThunk body rt) p -> verify pool body = true.

Lemma thunks_app pool p1 p2 : thunks_ok pool p1 -> thunks_ok pool p2 -> thunks_ok pool (p1 ++ p2).
Proof. intros H1 H2 body rt Hin. apply in_app_or in Hin as [Hin|Hin]; [exact (H1 _ _ Hin)|exact (H2 _ _ Hin)]. Qed.

(* a nonempty fragment from depth 0 to 1 whose thunk bodies verify, in every pool that has [p] at [pl] *)
Definition one_ok (pc pl : nat) (f : list N) (p : list const) : Prop :=
  f <> [] /\ forall pool, pool_at pl p pool -> FR pool pc f 0 1 /\ thunks_ok pool p.

(* a fragment, maybe empty, that leaves [n] values for the code [g] after it *)
Definition seq_ok (n pc pl : nat) (f : list N) (p : list const) : Prop :=
  forall pool, pool_at pl p pool ->
    thunks_ok pool p /\ forall g a c, g <> [] -> FR pool (pc + len f) g (n + a) c -> FR pool pc (f ++ g) a c.

Lemma seq_nil pc pl : seq_ok 0 pc pl [] [].
Proof.
  intros pool _. split; [intros body rt []|]. intros g a c _ H. cbn [len List.length] in H. rewrite Nat.add_0_r in H. exact H.
Qed.

Lemma seq_one pc pl f p : one_ok pc pl f p -> seq_ok 1 pc pl f p.
Proof.
  intros [_ H] pool Hp. destruct (H pool Hp) as [F T]. split; [exact T|].
  intros g a c Hg HF. exact (FR_app pool pc f g a (1 + a) c Hg (FR_frame pool pc f 0 1 a F) HF).
Qed.

Lemma seq_app n1 n2 pc pl f1 p1 f2 p2 :
  seq_ok n1 pc pl f1 p1 -> seq_ok n2 (pc + List.length f1) (pl + List.length p1) f2 p2 ->
  seq_ok (n1 + n2) pc pl (f1 ++ f2) (p1 ++ p2).
Proof.
  intros H1 H2 pool Hp. destruct (pool_at_app _ _ _ _ Hp) as [Hp1 Hp2].
  destruct (H1 pool Hp1) as [T1 K1]. destruct (H2 pool Hp2) as [T2 K2]. split; [exact (thunks_app _ _ _ T1 T2)|].
  intros g a c Hg HF. rewrite <- app_assoc. apply K1; [intros E; apply app_eq_nil in E as [_ E]; exact (Hg E)|].
  apply K2; [exact Hg|]. rewrite len_app, Nat.add_assoc in HF.
  replace (n2 + (n1 + a)) with (n1 + n2 + a) by lia. exact HF.
Qed.

Lemma then_op n pc pl f p q o vs pops pushes :
  seq_ok n pc pl f p -> List.length vs = List.length (operands o) -> is_ctl o = false ->
  (forall body rt, ~ In (CThunk body rt) q) ->
  (forall pool, pool_at (pl + List.length p) q pool ->
     effect pool (puts (operands o) vs (mkDec o None None None None 1)) = Some (pops, pushes)) ->
  pops <= n -> n - pops + pushes = 1 ->
  one_ok pc pl (f ++ op_byte o :: encs (operands o) vs) (p ++ q).
Proof.
  intros H Hvs Hctl Hq Heff Hpops Hnet. split; [intros E; apply app_eq_nil in E as [_ E]; discriminate E|].
  intros pool Hp. destruct (pool_at_app _ _ _ _ Hp) as [Hp1 Hp2]. destruct (H pool Hp1) as [T K]. split.
  - apply K; [discriminate|]. apply (FR_op pool _ o vs pops pushes); auto; lia.
  - apply thunks_app; [exact T|]. intros body rt Hin. destruct (Hq _ _ Hin).
Qed.

Lemma then_op_noconst n pc pl f p o vs pops pushes :
  seq_ok n pc pl f p -> List.length vs = List.length (operands o) -> is_ctl o = false ->
  (forall pool, effect pool (puts (operands o) vs (mkDec o None None None None 1)) = Some (pops, pushes)) ->
  pops <= n -> n - pops + pushes = 1 ->
  one_ok pc pl (f ++ op_byte o :: encs (operands o) vs) p.
Proof.
  intros H Hvs Hctl Heff Hpops Hnet. rewrite <- (app_nil_r p).
  apply (then_op n pc pl f p [] o vs pops pushes); auto.
Qed.

Lemma then_op_const n pc pl f p c o vs pops pushes :
  seq_ok n pc pl f p -> List.length vs = List.length (operands o) -> is_ctl o = false ->
  (forall body rt, c <> CThunk body rt) ->
  (forall pool, nth_error pool (pl + List.length p) = Some c ->
     effect pool (puts (operands o) vs (mkDec o None None None None 1)) = Some (pops, pushes)) ->
  pops <= n -> n - pops + pushes = 1 ->
  one_ok pc pl (f ++ op_byte o :: encs (operands o) vs) (p ++ [c]).
Proof.
  intros H Hvs Hctl Hc Heff Hpops Hnet. apply (then_op n pc pl f p [c] o vs pops pushes); auto.
  - intros body rt [E|[]]. exact (Hc _ _ E).
  - intros pool Hp. apply Heff, (pool_at_hd _ _ []), Hp.
Qed.

Section Compiles.
Variable ops : numops.
Variable orc : oracles.
Variable fe : fenv.

Lemma thunk_ok pc pl fx px ty : one_ok 0 pl fx px ->
  seq_ok 1 pc pl (op_byte OP_CONST :: b16 (N.of_nat (pl + List.length px))) (px ++ [CThunk (fx ++ [op_byte OP_RETURN]) ty]).
Proof.
  intros [_ H] pool Hp. destruct (pool_at_app _ _ _ _ Hp) as [Hp1 Hp2]. destruct (H pool Hp1) as [F T].
  apply pool_at_hd in Hp2. split.
  - apply thunks_app; [exact T|]. intros body rt [E|[]]. injection E as <- _. exact (verify_of_FR _ _ F).
  - intros g a c Hg HF. apply (FR_app pool pc [_; _; _] g a (1 + a) c Hg); [|exact HF].
    apply (FR_op pool pc OP_CONST [_] 0 1); try reflexivity; [|lia|lia].
    cbn [operands puts put effect d_op d_const]. rewrite Nat2N.id, Hp2. reflexivity.
Qed.

Ltac effect_of := cbn [operands puts put effect d_op d_const d_med d_b]; rewrite ?Nat2N.id.

Lemma const_ok pc pl v : one_ok pc pl (op_byte OP_CONST :: b16 (N.of_nat pl)) [CVal v].
Proof.
  rewrite <- (Nat.add_0_r pl) at 2.
  apply (then_op_const 0 pc pl [] [] (CVal v) OP_CONST [_] 0 1 (seq_nil pc pl)); try reflexivity; try discriminate.
  intros pool Hn. cbn [List.length] in Hn. effect_of. rewrite Hn. reflexivity.
Qed.

Lemma shape_ok :
  (forall a pc pl f p, cshape ops orc fe a pc pl f p -> awf fe a -> one_ok pc pl f p) /\
  (forall es pc pl f p, cshapes ops orc fe es pc pl f p -> Forall (awf fe) es -> seq_ok (len es) pc pl f p) /\
  (forall br pc pl f p, bshape ops orc fe br pc pl f p -> on_branch (awf fe) br -> one_ok pc pl f p) /\
  (forall sg args pc pl f p, ashape ops orc fe sg args pc pl f p -> Forall (awf fe) args -> seq_ok (len args) pc pl f p) /\
  (forall sg i args pc pl f p, tshapes ops orc fe sg i args pc pl f p -> Forall (awf fe) args -> seq_ok (len args) pc pl f p).
Proof.
  apply shape_mutind.
  - (* leaf *) intros a v pc pl _ _. apply const_ok.
  - (* ident *) intros c n pc pl _. rewrite <- (Nat.add_0_r pl) at 2.
    apply (then_op_const 0 pc pl [] [] (CName n) OP_LOAD [_] 0 1 (seq_nil pc pl)); try reflexivity; try discriminate.
    intros pool Hn. cbn [List.length] in Hn. effect_of. rewrite Hn. reflexivity.
  - (* list *) intros t es pc pl f p _ IH Wa. destruct (awf_inv _ _ Wa) as ([el ->] & Wes).
    apply (then_op_const (len es) pc pl f p (CType (TList el)) OP_NEW_LIST [_; _] (len es) 1 (IH Wes)); try reflexivity; try discriminate; try lia.
    intros pool Hn. effect_of. rewrite Hn. reflexivity.
  - (* map *) intros t kvs pc pl f p _ IH Wa. destruct (awf_inv _ _ Wa) as ((kt & vt & ->) & Wes).
    apply (then_op_const (len (flatten kvs)) pc pl f p (CType (TMap kt vt)) OP_NEW_MAP [_; _] (2 * len kvs) 1 (IH Wes));
      try reflexivity; try discriminate; rewrite ?flatten_len; try lia.
    intros pool Hn. effect_of. rewrite Hn. reflexivity.
  - (* obj *) intros t fs pc pl f p _ IH Wa. destruct (awf_inv _ _ Wa) as ((tfs & -> & El) & Wfs).
    apply (then_op_const (len (map snd fs)) pc pl f p (CType (TObj tfs)) OP_NEW_OBJ [_] (len tfs) 1 (IH Wfs));
      try reflexivity; try discriminate; unfold len in *; rewrite ?map_length; try lia.
    intros pool Hn. effect_of. rewrite Hn. reflexivity.
  - (* dynamic call *) intros c key idx ft callee args pc pl f1 p1 f2 p2 _ _ IH1 _ IH2 Wa.
    destruct (awf_inv _ _ Wa) as (Wc & Wargs & _). rewrite app_assoc.
    apply (then_op_noconst (1 + len args) pc pl (f1 ++ f2) (p1 ++ p2) OP_DYNAMIC_CALL [_] (S (len args)) 1
             (seq_app _ _ _ _ _ _ _ _ (seq_one _ _ _ _ (IH1 Wc)) (IH2 Wargs))); try reflexivity; try lia.
    intros pool. effect_of. reflexivity.
  - (* if, and, or *) intros c key idx ft callee args sg b x t e pc pl fx px ft' pt fe' pe _ _ _ Hcp _ IHx _ IHt _ IHe Wa.
    destruct (awf_inv _ _ Wa) as (Wc & Wargs & _).
    destruct (cond_parts_Forall _ _ _ _ _ _ Wargs Hcp) as (Wx & Wt & We).
    destruct (IHx Wx) as [_ Hx]. destruct (IHt Wt) as [_ Ht]. destruct (IHe We) as [Hne He].
    split; [intros E; apply app_eq_nil in E as [_ E]; discriminate E|].
    intros pool Hp. destruct (pool_at_app _ _ _ _ Hp) as [Hp1 Hp23]. destruct (pool_at_app _ _ _ _ Hp23) as [Hp2 Hp3].
    destruct (Hx pool Hp1) as [Fx Tx]. destruct (Ht pool Hp2) as [Ft Tt]. destruct (He pool Hp3) as [Fe Te].
    split; [|exact (thunks_app _ _ _ Tx (thunks_app _ _ _ Tt Te))].
    exact (FR_cond pool pc fx ft' fe' Hne Fx Ft Fe).
  - (* not *) intros c key idx ft callee sg x pc pl f p _ _ _ _ IH Wa.
    destruct (awf_inv _ _ Wa) as (Wc & Wargs & _). inversion Wargs as [|? ? Wx _]; subst.
    apply (then_op_noconst 1 pc pl f p OP_LOGICAL_NOT [] 1 1 (seq_one _ _ _ _ (IH Wx))); try reflexivity; lia.
  - (* intrinsic *) intros c key idx ft callee args sg o pc pl f p Hk Hl _ Hcbv _ IH Wa.
    destruct (awf_inv _ _ Wa) as (Wc & Wargs & Har).
    pose proof (Har Hk _ Hl) as Hn.
    destruct (cbv_info _ _ Hcbv) as (_ & _ & bf & _ & Hsem). rewrite Hn in Hsem.
    destruct (intrinsic_effect _ _ _ Hsem) as (Hops & Hctl & [[-> Hk1]|[_ He]]).
    + apply (then_op_noconst (len args) pc pl f p OP_ADD_NUM [] 0 0 (IH Wargs)); try reflexivity; lia.
    + apply (then_op_noconst (len args) pc pl f p o [] (len args) 1 (IH Wargs)); [rewrite Hops; reflexivity|exact Hctl|exact He|lia|lia].
  - (* call *) intros c key idx ft callee args sg pc pl f p Hk Hl _ _ _ IH Wa.
    destruct (awf_inv _ _ Wa) as (Wc & Wargs & Har).
    pose proof (Har Hk _ Hl) as Hn.
    destruct (s_lazy sg) eqn:Elz;
      [apply (then_op_const (len args) pc pl f p (CFun sg) OP_CALL_BY_NEED [_; _] (len args) 1 (IH Wargs))
      |apply (then_op_const (len args) pc pl f p (CFun sg) OP_CALL_BY_VALUE [_; _] (len args) 1 (IH Wargs))];
      try reflexivity; try discriminate; try lia;
      intros pool Hp; effect_of; rewrite Hp, Hn, Nat.eqb_refl, Elz; reflexivity.
  - (* subscript *) intros c vty v i o pc pl f1 p1 f2 p2 Ho _ IH1 _ IH2 Wa.
    destruct (awf_inv _ _ Wa) as (W1 & W2). rewrite app_assoc.
    pose proof (seq_app _ _ _ _ _ _ _ _ (seq_one _ _ _ _ (IH1 W1)) (seq_one _ _ _ _ (IH2 W2))) as H12.
    unfold sub_op in Ho. destruct (ty_is_list vty); [|destruct (ty_is_map vty); [|discriminate Ho]]; injection Ho as <-;
      apply (then_op_noconst 2 pc pl _ _ _ [] 2 1 H12); try reflexivity; lia.
  - (* member *) intros c oty idx o n pc pl f p _ IH Wa. pose proof (awf_inv _ _ Wa) as W1.
    apply (then_op_const 1 pc pl f p (CName n) OP_OBJ_LOAD [_; _] 1 1 (seq_one _ _ _ _ (IH W1))); try reflexivity; try discriminate; try lia.
    intros pool Hn. effect_of. rewrite Hn. reflexivity.
  - intros pc pl _. apply seq_nil.
  - intros x r pc pl f1 p1 f2 p2 _ IH1 _ IH2 W. inversion W as [|? ? Wx Wr]; subst.
    exact (seq_app 1 (len r) _ _ _ _ _ _ (seq_one _ _ _ _ (IH1 Wx)) (IH2 Wr)).
  - intros e pc pl f p _ IH W. exact (IH W).
  - intros b pc pl _. apply const_ok.
  - intros sg args pc pl f p _ _ IH. exact IH.
  - intros sg args pc pl f p _ _ IH. exact IH.
  - intros sg i pc pl _. apply seq_nil.
  - (* deferred argument *) intros sg i x r pc pl fx px f2 p2 _ IHx _ IHr W. inversion W as [|? ? Wx Wr]; subst.
    pose proof (seq_app 1 (len r) pc pl _ _ f2 p2 (thunk_ok pc pl fx px (thunk_ret sg i) (IHx Wx))) as H.
    rewrite app_length, Nat.add_assoc, <- app_assoc in H. exact (H (IHr Wr)).
Qed.

End Compiles.

(* [FR] read off a pair of compiler states: the code and pool emitted between [st] and [st'] verify from depth [a] to
   [b], in every pool that extends the one of [st']. *)
Definition code_of (st : cstate) : list N := rev (cs_rcode st).
Definition pool_of (st : cstate) : list const := rev (cs_rpool st).
Definition cs_wf (st : cstate) : Prop :=
  cs_clen st = N.of_nat (len (cs_rcode st)) /\ cs_plen st = N.of_nat (len (cs_rpool st)).
Definition pool_ext (p q : list const) : Prop := exists s, q = p ++ s.

Definition CG (ne : bool) (a b : nat) (st st' : cstate) : Prop :=
  cs_wf st' /\ exists frag newp,
    code_of st' = code_of st ++ frag /\ pool_of st' = pool_of st ++ newp /\
    (ne = true -> frag <> []) /\
    forall pool, pool_ext (pool_of st') pool ->
      FR pool (len (code_of st)) frag a b /\ (forall body rt, In (CThunk body rt) newp -> verify pool body = true).

Lemma CG_weaken a b st st' : CG true a b st st' -> CG false a b st st'.
Proof.
  intros (W1 & f1 & n1 & C1 & P1 & N1 & H1). split; auto. exists f1, n1. repeat split; auto; try discriminate; apply H1; auto.
Qed.

Lemma compile_awf_verifies (ops : numops) (orc : oracles) fe a code pool :
  awf fe a -> compile_main ops orc fe a = COk (code, pool) -> verify_all code pool = true.
Proof.
  intros Wa HM. destruct (compile_main_shape _ _ _ _ _ _ HM) as (f & S & ->).
  destruct (proj1 (shape_ok ops orc fe) _ _ _ _ _ S Wa) as [_ HF]. destruct (HF pool (fun i c Hi => Hi)) as [F T].
  unfold verify_all. rewrite (verify_of_FR _ _ F). apply forallb_forall.
  intros [v|sg|body rt|t|n] Hin; try reflexivity. exact (T _ _ Hin).
Qed.

Lemma compile_verifies : forall (ops : numops) (orc : oracles) fe G fuel fresh e a T code pool,
  (fe = builtin_fenv \/ fe = fenv_std) ->
  tenv_ok G = true -> fresh_ok fe fresh ->
  check fe G fuel fresh e = COk (a, T) ->
  compile_main ops orc fe a = COk (code, pool) ->
  verify_all code pool = true.
Proof.
  intros ops orc fe G fuel fresh e a T code pool Hfe HG Hfr HC HM.
  assert (Hok : fenv_ok fe = true) by (destruct Hfe; subst fe; [exact (proj1 C01Proofs.tables_ok)|exact (proj2 C01Proofs.tables_ok)]).
  exact (compile_awf_verifies ops orc fe a code pool (check_awf fe G fuel fresh Hok HG Hfr e a T HC) HM).
Qed.

Print Assumptions opcode_table.
Print Assumptions emit16_roundtrip.
Print Assumptions jumps_forward.
Print Assumptions verified_safe.
Print Assumptions compile_verifies.
