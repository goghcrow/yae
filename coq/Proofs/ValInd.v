(* Induction principle for the nested inductive [val] of Model/Val.v. *)
From Coq Require Import List String NArith.
From Yae Require Import Model.Ty Model.Val.
Import ListNotations.

Section ValInd.
  Variable P : val -> Prop.
  Hypothesis Hnum : forall b, P (VNum b).
  Hypothesis Hbool : forall b, P (VBool b).
  Hypothesis Hstr : forall s, P (VStr s).
  Hypothesis Htime : forall s n, P (VTime s n).
  Hypothesis Hlist : forall t vs, Forall P vs -> P (VList t vs).
  Hypothesis Hmap : forall t kvs, Forall (fun kv => P (snd kv)) kvs -> P (VMap t kvs).
  Hypothesis Hobj : forall t vs, Forall P vs -> P (VObj t vs).
  Hypothesis Hnone : forall t, P (VMaybe t None).
  Hypothesis Hsome : forall t x, P x -> P (VMaybe t (Some x)).
  Hypothesis Hfun : forall t n l, P (VFun t n l).

  Fixpoint val_ind' (v : val) : P v :=
    match v with
    | VNum b => Hnum b | VBool b => Hbool b | VStr s => Hstr s | VTime s n => Htime s n
    | VList t vs => Hlist t vs ((fix go (l : list val) : Forall P l :=
                                  match l with [] => Forall_nil _ | a :: r => Forall_cons _ (val_ind' a) (go r) end) vs)
    | VMap t kvs => Hmap t kvs ((fix go (l : list (list N * val)) : Forall (fun kv => P (snd kv)) l :=
                                   match l with [] => Forall_nil _ | a :: r => Forall_cons _ (val_ind' (snd a)) (go r) end) kvs)
    | VObj t vs => Hobj t vs ((fix go (l : list val) : Forall P l :=
                                 match l with [] => Forall_nil _ | a :: r => Forall_cons _ (val_ind' a) (go r) end) vs)
    | VMaybe t None => Hnone t
    | VMaybe t (Some x) => Hsome t x (val_ind' x)
    | VFun t n l => Hfun t n l
    end.
End ValInd.
