(* Proofs for Props/C18.v: equality, map keys and rendering of values agree.
   Symmetry needs [funs_wf], key identity [times_separated], equal renderings and canonical rendering
   [maybe_fn_free]: the four [*_counterexample] lemmas show what fails without them.
   Two sections that stand by themselves come first: numbers with equal texts are equal (BigDistinct) and [quote] is
   injective (Quote).  [render_kvs_perm] and [nodup_keys_NoDup] also serve C13Proofs.v. *)
From Coq Require Import List String Ascii Bool Arith NArith ZArith Lia Permutation Sorting DecimalString DecimalN DecimalPos.
From Coq Require FinFun.
From Yae Require Import Base.Sexp Model.Ty Gen.Generated Model.Num Model.Lexer Model.Literal Model.Val Model.Render
  Model.ValSpec Model.TySpec Proofs.TyInd Proofs.ValInd Proofs.C17Proofs Proofs.ListFacts Proofs.ValFacts Proofs.Utf8Facts.
Import ListNotations.
Local Open Scope nat_scope.
Local Open Scope list_scope.

Lemma N_of_ascii_inj a b : N_of_ascii a = N_of_ascii b -> a = b.
Proof. intros H. rewrite <- (ascii_N_embedding a), <- (ascii_N_embedding b), H. reflexivity. Qed.

Lemma bytes_of_string_inj s t : bytes_of_string s = bytes_of_string t -> s = t.
Proof.
  unfold bytes_of_string. intros H. apply (map_inj _ N_of_ascii_inj) in H.
  rewrite <- (string_of_list_ascii_of_string s), H. apply string_of_list_ascii_of_string.
Qed.

Lemma string_of_N_nodash n s : string_of_N n <> String "-" s.
Proof.
  unfold string_of_N. pose proof (N_to_uint_nonnil n) as Hn.
  destruct (N.to_uint n); [congruence|simpl; discriminate..].
Qed.

Lemma string_of_Z_inj a b : string_of_Z a = string_of_Z b -> a = b.
Proof.
  (* "0" is the text of the natural number 0, and no natural number's text starts with a dash *)
  destruct a as [|p|p], b as [|q|q]; simpl; intros H; try reflexivity; change "0"%string with (string_of_N 0) in *;
    try (apply string_of_N_inj in H; congruence);
    try (exfalso; first [exact (string_of_N_nodash _ _ H)|exact (string_of_N_nodash _ _ (Logic.eq_sym H))]).
  injection H as H. apply string_of_N_inj in H. congruence.
Qed.

Lemma fmt_Z_inj a b : fmt_Z a = fmt_Z b -> a = b.
Proof. unfold fmt_Z. intros H. apply string_of_Z_inj. apply bytes_of_string_inj. exact H. Qed.

Section BigDistinct.
  Variable ops : numops.

  Lemma big_distinct : forall a b,
    (forall x y, is_int ops x = true -> is_int ops y = true -> to_i64 ops x = to_i64 ops y -> num_eq ops x y = true) ->
    (forall x y, is_int ops x = false -> is_int ops y = false -> fmt_float ops x = fmt_float ops y -> x = y) ->
    (forall x y, is_int ops x = true -> is_int ops y = false -> fmt_Z (to_i64 ops x) <> fmt_float ops y) ->
    (forall b0, In b0 [a; b] -> num_eq ops b0 b0 = true) ->
    fmt_num ops a = fmt_num ops b -> num_eq ops a b = true.
  Proof.
    intros a b Hii Hff Hif Hrefl Hfmt. unfold fmt_num in Hfmt.
    destruct (is_int ops a) eqn:Ia; destruct (is_int ops b) eqn:Ib.
    - apply Hii; try assumption. apply fmt_Z_inj. exact Hfmt.
    - exfalso. eapply Hif; eauto.
    - exfalso. eapply Hif; eauto.
    - assert (a = b) as E by (apply Hff; assumption). subst b. apply Hrefl. left. reflexivity.
  Qed.
End BigDistinct.

(* quote_injective: by a decoder for the per-rune encodings of strconv.Quote.  [quote s] is [quote_body s] between
   two quote marks, and [quote_body s] joins [escape_at], the escaped text of one decoded rune (the rune, its width
   and its first byte, which is what an invalid byte is escaped by).  [unescape_step] reads one such text back and
   answers [None] on a quote mark: the closing mark is kept in [quote_body_nil_inv] and [quote_body_inj] because it
   is what keeps the body of a shorter string from being a prefix of another.  [is_print] is never unfolded: the
   result holds for every "printable" predicate. *)

Section Quote.
  Local Open Scope N_scope.
  Local Open Scope list_scope.
  Local Arguments is_print : simpl never.
  Local Opaque is_print.

  Local Definition unhexd (c : N) : N := if N.ltb c 58 then c - 48 else c - 87.
  Local Definition unhex2 (h1 h2 : N) : N := unhexd h1 * 16 + unhexd h2.
  Local Definition unhex4 (h1 h2 h3 h4 : N) : N := unhex2 h1 h2 * 256 + unhex2 h3 h4.
  Local Definition unhex8 (h1 h2 h3 h4 h5 h6 h7 h8 : N) : N := unhex4 h1 h2 h3 h4 * 65536 + unhex4 h5 h6 h7 h8.

  Lemma div_mod_eq n k : n / k * k + n mod k = n.
  Proof. rewrite N.mul_comm. symmetry. apply N.div_mod'. Qed.

  Lemma unhexd_hexd n : unhexd (hexd n) = n.
  Proof.
    unfold unhexd, hexd.
    destruct (N.ltb_spec n 10); [rewrite (proj2 (N.ltb_lt _ 58))|rewrite (proj2 (N.ltb_ge _ 58))]; lia.
  Qed.

  Lemma unhex2_hex2 n : unhex2 (hexd (n / 16)) (hexd (n mod 16)) = n.
  Proof. unfold unhex2. rewrite !unhexd_hexd. apply div_mod_eq. Qed.

  Lemma unhex4_hex4 n :
    unhex4 (hexd (n / 256 / 16)) (hexd ((n / 256) mod 16)) (hexd (n mod 256 / 16)) (hexd ((n mod 256) mod 16)) = n.
  Proof. unfold unhex4. rewrite !unhex2_hex2. apply div_mod_eq. Qed.

  Local Definition unescape_step (l : list N) : option (list N * list N) :=
    match l with
    | [] => None
    | c :: t =>
        if N.eqb c 34 then None
        else if N.eqb c 92 then
          match t with
          | [] => None
          | e :: u =>
              if N.eqb e 120 then match u with h1 :: h2 :: v => Some ([unhex2 h1 h2], v) | _ => None end
              else if N.eqb e 117 then
                match u with h1 :: h2 :: h3 :: h4 :: v => Some (utf8_encode (unhex4 h1 h2 h3 h4), v) | _ => None end
              else if N.eqb e 85 then
                match u with
                | h1 :: h2 :: h3 :: h4 :: h5 :: h6 :: h7 :: h8 :: v =>
                    Some (utf8_encode (unhex8 h1 h2 h3 h4 h5 h6 h7 h8), v)
                | _ => None end
              else if N.eqb e 97 then Some ([7], u) else if N.eqb e 98 then Some ([8], u)
              else if N.eqb e 102 then Some ([12], u) else if N.eqb e 110 then Some ([10], u)
              else if N.eqb e 114 then Some ([13], u) else if N.eqb e 116 then Some ([9], u)
              else if N.eqb e 118 then Some ([11], u)
              else Some ([e], u)
          end
        else let w := snd (utf8_decode l) in Some (firstn w l, skipn w l)
    end.

  Local Definition escape_at (x : N * nat * N) : list N :=
    let '(r, w, b0) := x in if Nat.eqb w 1 && N.eqb r 65533 then [92; 120] ++ hex2 b0 else escape_rune r.

  Lemma unescape_step_ok a0 ar r w rest : utf8_decode (a0 :: ar) = (r, w) ->
    unescape_step (escape_at (r, w, a0) ++ rest) = Some (firstn w (a0 :: ar), rest).
  Proof.
    intros Hdec. destruct (utf8_decode_inv _ _ _ _ Hdec) as [[[= -> ->] Ha]|(l & rest0 & Hu & El & ->)].
    - cbn [escape_at Nat.eqb andb N.eqb Pos.eqb hex2 app unescape_step firstn]. rewrite unhex2_hex2. reflexivity.
    - destruct (utf8_head _ _ Hu) as (b0 & t & El' & Hlow & Hone).
      assert (escape_at (r, List.length l, a0) = escape_rune r) as ->.
      { unfold escape_at. rewrite El'. destruct t; [|reflexivity].
        rewrite (proj2 (N.eqb_neq r 65533)); [reflexivity|]. specialize (Hone Logic.eq_refl). lia. }
      rewrite El, firstn_len_app, <- (utf8_encode_ok _ _ Hu). unfold escape_rune.
      destruct (N.eqb_spec r 34) as [->|N34]; [reflexivity|].
      destruct (N.eqb_spec r 92) as [->|N92]; [reflexivity|]. cbn [orb].
      destruct (is_print r).
      { (* printable: the bytes of [r] themselves, and their first byte is neither a quote nor a backslash *)
        rewrite (utf8_encode_ok _ _ Hu). pose proof (utf8_decode_ok _ _ rest Hu) as Hd.
        rewrite El' in *. cbn [app unescape_step] in *.
        rewrite (proj2 (N.eqb_neq b0 34)), (proj2 (N.eqb_neq b0 92)), Hd by (intros ->; lia).
        cbn [snd]. change (b0 :: t ++ rest) with ((b0 :: t) ++ rest). rewrite firstn_len_app, skipn_len_app. reflexivity. }
      destruct (N.eqb_spec r 7); [subst r; reflexivity|].
      destruct (N.eqb_spec r 8); [subst r; reflexivity|].
      destruct (N.eqb_spec r 12); [subst r; reflexivity|].
      destruct (N.eqb_spec r 10); [subst r; reflexivity|].
      destruct (N.eqb_spec r 13); [subst r; reflexivity|].
      destruct (N.eqb_spec r 9); [subst r; reflexivity|].
      destruct (N.eqb_spec r 11); [subst r; reflexivity|].
      destruct (N.ltb r 32 || N.eqb r 127) eqn:Ectl.
      { assert (r < 128) as Hr128.
        { apply orb_true_iff in Ectl. destruct Ectl as [E|E]; [apply N.ltb_lt in E; lia|apply N.eqb_eq in E; lia]. }
        cbn [hex2 app unescape_step N.eqb Pos.eqb]. rewrite unhex2_hex2, (utf8_encode_ok r [r]) by (apply U1, Hr128). reflexivity. }
      destruct (N.ltb r 65536).
      + cbn [hex4 hex2 app unescape_step N.eqb Pos.eqb]. rewrite unhex4_hex4. reflexivity.
      + cbn [hex8 hex4 hex2 app unescape_step N.eqb Pos.eqb]. unfold unhex8. rewrite !unhex4_hex4, div_mod_eq. reflexivity.
  Qed.

  Local Definition quote_body (s : list N) : list N := flat_map escape_at (runes_of s).

  Lemma quote_body_cons a0 ar r w : utf8_decode (a0 :: ar) = (r, w) ->
    quote_body (a0 :: ar) = escape_at (r, w, a0) ++ quote_body (skipn w (a0 :: ar)).
  Proof.
    intros E. unfold quote_body, runes_of, len. cbn [List.length decode_all]. rewrite E. cbn [flat_map].
    f_equal. f_equal. pose proof (decode_width_pos _ _ _ _ E) as Hw.
    apply decode_all_fuel; rewrite ?skipn_length; cbn [List.length]. all: lia.
  Qed.

  Lemma quote_body_nil_inv b : [34] = quote_body b ++ [34] -> b = [].
  Proof.
    destruct b as [|b0 br]; [reflexivity|]. intros H. exfalso.
    destruct (utf8_decode (b0 :: br)) as [r w] eqn:E.
    rewrite (quote_body_cons _ _ _ _ E), <- app_assoc in H.
    apply (f_equal unescape_step) in H. rewrite (unescape_step_ok _ _ _ _ _ E) in H. discriminate H.
  Qed.

  Lemma quote_body_inj : forall n a, (List.length a <= n)%nat -> forall b, quote_body a ++ [34] = quote_body b ++ [34] -> a = b.
  Proof.
    induction n as [|n IH]; intros a Hn b H.
    - destruct a; [|simpl in Hn; lia]. symmetry. apply quote_body_nil_inv. exact H.
    - destruct a as [|a0 ar]; [symmetry; apply quote_body_nil_inv; exact H|].
      destruct b as [|b0 br]; [apply quote_body_nil_inv; symmetry; exact H|].
      destruct (utf8_decode (a0 :: ar)) as [r w] eqn:Ea.
      destruct (utf8_decode (b0 :: br)) as [r' w'] eqn:Eb.
      rewrite (quote_body_cons _ _ _ _ Ea), (quote_body_cons _ _ _ _ Eb), <- !app_assoc in H.
      apply (f_equal unescape_step) in H.
      rewrite (unescape_step_ok _ _ _ _ _ Ea), (unescape_step_ok _ _ _ _ _ Eb) in H.
      injection H as H1 H2.
      pose proof (decode_width_pos _ _ _ _ Ea) as Hw.
      apply IH in H2; [|rewrite skipn_length; cbn [List.length] in *; lia].
      rewrite <- (firstn_skipn w (a0 :: ar)), <- (firstn_skipn w' (b0 :: br)). congruence.
  Qed.

  Lemma quote_eq s : quote s = 34 :: quote_body s ++ [34].
  Proof. reflexivity. Qed.

  Lemma quote_injective : forall a b, quote a = quote b -> a = b.
  Proof.
    intros a b H. rewrite !quote_eq in H. injection H as H.
    eapply quote_body_inj; [apply Nat.le_refl|exact H].
  Qed.
End Quote.

(* [ty_eqb] ignores the name of a function type, [canon] and hence rendering print it *)
Fixpoint no_fun_ty (t : ty) : bool :=
  match t with
  | TFun _ _ _ => false
  | TList e | TMaybe e => no_fun_ty e
  | TMap k v => no_fun_ty k && no_fun_ty v
  | TTuple l => forallb no_fun_ty l
  | TObj fs => forallb (fun f => no_fun_ty (snd f)) fs
  | _ => true
  end.

(* [val_ok] does not ask this of a function value, see [eq_sym_counterexample] *)
Fixpoint funs_wf (v : val) : bool :=
  match v with
  | VFun t _ _ => wf_ty t
  | VList _ vs | VObj _ vs => forallb funs_wf vs
  | VMap _ kvs => forallb (fun kv => funs_wf (snd kv)) kvs
  | VMaybe _ (Some x) => funs_wf x
  | _ => true
  end.

(* the type of an optional value is rendered, see [render_opt] *)
Fixpoint maybe_fn_free (v : val) : bool :=
  match v with
  | VMaybe t o => no_fun_ty t && match o with Some x => maybe_fn_free x | None => true end
  | VList _ vs | VObj _ vs => forallb maybe_fn_free vs
  | VMap _ kvs => forallb (fun kv => maybe_fn_free (snd kv)) kvs
  | _ => true
  end.

(* false of the model for nanoseconds outside [0, 10^9), see [eq_key_counterexample] *)
Definition times_separated (x y : val) : bool :=
  match x, y with
  | VTime s1 n1, VTime s2 n2 => implb (list_eqb (fmt_time s1 n1) (fmt_time s2 n2)) (Z.eqb s1 s2 && Z.eqb n1 n2)
  | _, _ => true
  end.

Lemma fun_free_funs_wf : forall v, fun_free v = true -> funs_wf v = true.
Proof.
  induction v as [| | | |t vs IH|t kvs IH|t vs IH| |t x IH|] using val_ind'; simpl; intros Hf;
    try reflexivity; try discriminate Hf; try exact (IH Hf).
  all: rewrite forallb_forall in *; rewrite Forall_forall in IH; intros x Hx; exact (IH x Hx (Hf x Hx)).
Qed.

Lemma nodup_keys_NoDup l : nodup_keys l = true -> NoDup l.
Proof. exact (nodup_by_NoDup list_eqb l list_eqb_refl). Qed.

Lemma assoc_combine_index {X Y} n (fs : list (string * Y)) : forall ys : list X,
  assoc n (combine (map fst fs) ys) = match index_of n fs with Some j => nth_error ys j | None => None end.
Proof.
  induction fs as [|[m t] fr IH]; intros [|y ys]; simpl; try reflexivity.
  - destruct (String.eqb n m); [reflexivity|]. destruct (index_of n fr); reflexivity.
  - destruct (String.eqb n m); [reflexivity|]. rewrite IH. destruct (index_of n fr); reflexivity.
Qed.

Lemma fields_keys {X Y} (fs : list (string * Y)) (vs : list X) :
  List.length fs = List.length vs -> map fst (combine (map fst fs) vs) = map fst fs.
Proof. intros H. apply map_fst_combine. rewrite map_length. exact H. Qed.

Section Fields.
  Context {X Y : Type} (fx fy : list (string * ty)) (xs : list X) (ys : list Y).
  Hypothesis (Hnx : NoDup (map fst fx)) (Hny : NoDup (map fst fy)).
  Hypothesis (Hlx : List.length fx = List.length xs) (Hly : List.length fy = List.length ys).
  Hypothesis Hlen : List.length xs = List.length ys.

  Lemma obj_flip (R : X -> Y -> Prop) :
    all_get (@assoc) R (combine (map fst fx) xs) (combine (map fst fy) ys) ->
    all_get (@assoc) (fun b a => R a b) (combine (map fst fy) ys) (combine (map fst fx) xs).
  Proof.
    apply (all_get_flip (@assoc) (@assoc_In) (@In_assoc) (@In_keys_assoc)); rewrite ?fields_keys; try assumption.
    rewrite !combine_length, !map_length. lia.
  Qed.

  Lemma obj_perm {Z} (g : X -> Z) (h : Y -> Z) :
    all_get (@assoc) (fun a b => g a = h b) (combine (map fst fx) xs) (combine (map fst fy) ys) ->
    Permutation (combine (map fst fx) (map g xs)) (combine (map fst fy) (map h ys)).
  Proof.
    rewrite !combine_map_r. apply (all_get_perm (@assoc) (@assoc_In)); rewrite ?fields_keys; try assumption.
    rewrite !combine_length, !map_length. lia.
  Qed.
End Fields.

Lemma val_ok_obj_inv t vs : val_ok (VObj t vs) = true ->
  exists fs, t = TObj fs /\ wf_ty t = true /\ NoDup (map fst fs) /\ List.length fs = List.length vs /\
             Forall (fun x => val_ok x = true) vs.
Proof.
  intros H. destruct (val_ok_objval _ _ H) as (fs & -> & [Hwf _] & F). exists fs.
  split; [reflexivity|]. split; [exact Hwf|]. split; [apply (wf_obj _ Hwf)|]. split; [exact (Forall2_len _ _ _ F)|].
  apply (Forall2_Forall_r _ _ _ _ F). tauto.
Qed.

Section EqDefs.
  Variable ops : numops.

  Definition eqb_vobj (fy : list (string * ty)) (ys : list val) : list (string * ty) -> list val -> bool :=
    fix go (fx : list (string * ty)) (xs : list val) {struct xs} : bool :=
      match fx, xs with
      | (n, _) :: fr, a :: r =>
          match index_of n fy with
          | Some i => match nth_error ys i with Some b => val_eqb ops a b | None => false end
          | None => false
          end && go fr r
      | _, [] => true
      | [], _ :: _ => false
      end.

  Lemma val_eqb_list t xs t' ys : val_eqb ops (VList t xs) (VList t' ys) = ty_eqb t t' && forallb2 (val_eqb ops) xs ys.
  Proof. reflexivity. Qed.

  Lemma val_eqb_map t kx t' ky :
    val_eqb ops (VMap t kx) (VMap t' ky) = ty_eqb t t' && (Nat.eqb (len kx) (len ky) && allb_get (@kget) (val_eqb ops) ky kx).
  Proof. reflexivity. Qed.

  Lemma val_eqb_obj fx xs fy ys :
    val_eqb ops (VObj (TObj fx) xs) (VObj (TObj fy) ys) =
    ty_eqb (TObj fx) (TObj fy) && (Nat.eqb (len xs) (len ys) && eqb_vobj fy ys fx xs).
  Proof. reflexivity. Qed.

  Lemma eqb_vobj_spec fy ys fx : forall xs, List.length fx = List.length xs ->
    (eqb_vobj fy ys fx xs = true <->
     all_get (@assoc) (fun a b => val_eqb ops a b = true) (combine (map fst fx) xs) (combine (map fst fy) ys)).
  Proof.
    unfold all_get.
    induction fx as [|[n t] fr IH]; intros [|a r] Hlen; try discriminate Hlen.
    - split; [intros _ ? ? []|reflexivity].
    - injection Hlen as Hlen. cbn [eqb_vobj map fst combine]. rewrite andb_true_iff, (IH r Hlen). split.
      + intros [H1 H2] n' a' [[= <- <-]|Hin]; [|auto]. rewrite assoc_combine_index.
        destruct (index_of n fy) as [j|]; [|discriminate]. destruct (nth_error ys j) as [b|]; [exists b; split; [reflexivity|exact H1]|discriminate].
      + intros H. split; [|intros n' a' Hin; apply H; right; exact Hin].
        destruct (H n a (or_introl Logic.eq_refl)) as (b & Hb & Hab). rewrite assoc_combine_index in Hb.
        destruct (index_of n fy) as [j|]; [|discriminate]. rewrite Hb. exact Hab.
  Qed.

  Lemma val_eqb_list_spec t xs t' ys : val_eqb ops (VList t xs) (VList t' ys) = true <->
    ty_eqb t t' = true /\ Forall2 (fun a b => val_eqb ops a b = true) xs ys.
  Proof. rewrite val_eqb_list, andb_true_iff, forallb2_Forall2. reflexivity. Qed.

  Lemma val_eqb_map_spec t kx t' ky : val_eqb ops (VMap t kx) (VMap t' ky) = true <->
    ty_eqb t t' = true /\ List.length kx = List.length ky /\
    all_get (@kget) (fun a b => val_eqb ops a b = true) kx ky.
  Proof. rewrite val_eqb_map, !andb_true_iff, Nat.eqb_eq, (allb_get_spec (@kget)). reflexivity. Qed.

  Lemma val_eqb_obj_spec fx xs fy ys : List.length fx = List.length xs ->
    (val_eqb ops (VObj (TObj fx) xs) (VObj (TObj fy) ys) = true <->
     ty_eqb (TObj fx) (TObj fy) = true /\ List.length xs = List.length ys /\
     all_get (@assoc) (fun a b => val_eqb ops a b = true) (combine (map fst fx) xs) (combine (map fst fy) ys)).
  Proof. intros Hl. rewrite val_eqb_obj, !andb_true_iff, Nat.eqb_eq, (eqb_vobj_spec fy ys fx xs Hl). reflexivity. Qed.
End EqDefs.

Lemma bytes_leb_total a : forall b, bytes_leb a b = true \/ bytes_leb b a = true.
Proof.
  induction a as [|x r IH]; intros [|y s]; simpl; auto.
  destruct (N.ltb_spec x y); auto. destruct (N.ltb_spec y x); auto.
Qed.

Lemma bytes_leb_antisym a : forall b, bytes_leb a b = true -> bytes_leb b a = true -> a = b.
Proof.
  induction a as [|x r IH]; intros [|y s]; simpl; intros H1 H2; try discriminate; try reflexivity.
  destruct (N.ltb_spec x y); destruct (N.ltb_spec y x); try discriminate; try lia.
  assert (x = y) by lia. subst. f_equal. auto.
Qed.

Lemma bytes_leb_trans a : forall b c, bytes_leb a b = true -> bytes_leb b c = true -> bytes_leb a c = true.
Proof.
  induction a as [|x r IH]; intros [|y s] [|z u]; simpl; intros H1 H2; try discriminate; try reflexivity.
  destruct (N.ltb_spec x y); destruct (N.ltb_spec y z); destruct (N.ltb_spec x z); try reflexivity; try lia;
    destruct (N.ltb_spec y x); try discriminate; try lia;
    destruct (N.ltb_spec z y); try discriminate; try lia;
    destruct (N.ltb_spec z x); try lia.
  eapply IH; eauto.
Qed.

Lemma sort_by_isort {X} (key : X -> list N) (l : list X) : sort_by key l = isort key bytes_leb l.
Proof.
  revert l. apply fold_ins_isort.
  intros x l. induction l as [|y r IH]; simpl; [reflexivity|]. rewrite IH. reflexivity.
Qed.

Lemma sort_by_perm_eq {X} (key : X -> list N) (l1 l2 : list X) :
  NoDup (map key l1) -> Permutation l1 l2 -> sort_by key l1 = sort_by key l2.
Proof.
  rewrite !sort_by_isort. apply isort_perm_eq; [apply bytes_leb_total|apply bytes_leb_trans|apply bytes_leb_antisym].
Qed.

Lemma canon_eq : forall x y,
  wf_ty x = true -> wf_ty y = true -> no_fun_ty x = true -> ty_eqb x y = true -> canon x = canon y.
Proof.
  induction x using ty_ind'; intros y Hwx Hwy Hnf Heq; destruct y; try discriminate Heq; try reflexivity.
  - simpl in Heq. apply String.eqb_eq in Heq. congruence.
  - rewrite ty_eqb_tuple in Heq. apply eqb_list_Forall2 in Heq. apply wf_tuple in Hwx. apply wf_tuple in Hwy.
    simpl in Hnf. rewrite forallb_forall in Hnf. rewrite Forall_forall in *. simpl. f_equal.
    eapply Forall2_map_eq; [exact Heq|]. intros a b Ha Hb E. apply H; auto.
  - simpl in *. f_equal. auto.
  - apply wf_map in Hwx. apply wf_map in Hwy. destruct Hwx as [_ [Hk1 Hv1]]. destruct Hwy as [_ [Hk2 Hv2]].
    simpl in *. apply andb_true_iff in Heq. destruct Heq as [E1 E2]. apply andb_true_iff in Hnf. destruct Hnf as [N1 N2].
    f_equal; auto.
  - apply wf_obj in Hwx. apply wf_obj in Hwy. destruct Hwx as [Hn1 Hw1]. destruct Hwy as [Hn2 Hw2].
    rewrite Forall_forall in H. apply ty_eqb_obj_spec in Heq. destruct Heq as [Hlen Hrel].
    simpl in Hnf. rewrite forallb_forall in Hnf.
    cbn [canon]. f_equal. apply sort_kv_perm_eq; [rewrite map_fst_keyed; exact Hn1|].
    apply (all_get_perm (@assoc) (@assoc_In)); try assumption. intros n t Hin.
    destruct (Hrel n t Hin) as [t2 [Ha He]]. exists t2. split; [exact Ha|].
    exact (H (n, t) Hin t2 (Hw1 n t Hin) (Hw2 n t2 (assoc_In _ _ _ Ha)) (Hnf (n, t) Hin) He).
  - simpl in Hnf. discriminate Hnf.
  - simpl in *. f_equal. auto.
Qed.

Section C18.
  Variable ops : numops.

  Definition num_refl (l : list N) : Prop := forall b, In b l -> num_eq ops b b = true.
  Definition num_sym : Prop := forall a b, num_eq ops a b = num_eq ops b a.
  Definition num_separated (l1 l2 : list N) : Prop :=
    forall a b, In a l1 -> In b l2 -> (num_eq ops a b = true <-> fmt_num ops a = fmt_num ops b).

  Lemma key_of_inv x k : key_of ops x = ([], OVal k) ->
    match x with
    | VNum b => k = fmt_num ops b
    | VBool b => k = bytes_of_string (if b then "true" else "false")
    | VStr s => k = quote s
    | VTime s n => k = quote (fmt_time s n)
    | _ => False
    end.
  Proof. destruct x; cbn [key_of]; intros [= E]; try exact (Logic.eq_sym E). destruct b; exact (Logic.eq_sym E). Qed.

  Lemma eq_key_partial : forall x y kx ky,
    is_primitive (val_type x) = true -> ty_eqb (val_type x) (val_type y) = true ->
    num_separated (nums_of x) (nums_of y) ->
    times_separated x y = true ->
    key_of ops x = ([], OVal kx) -> key_of ops y = ([], OVal ky) ->
    (val_eqb ops x y = true <-> kx = ky).
  Proof.
    intros x y kx ky _ Hty Hsep Htime Hkx Hky. apply key_of_inv in Hkx. apply key_of_inv in Hky.
    destruct x; try contradiction; destruct y; try contradiction; try discriminate Hty; subst kx ky;
      cbn [val_eqb val_type ty_eqb andb].
    - apply Hsep; simpl; auto.
    - rewrite eqb_true_iff. split; [intros ->; reflexivity|]. intros H. apply bytes_of_string_inj in H.
      destruct b, b0; congruence.
    - rewrite list_eqb_eq. split; [congruence|apply quote_injective].
    - split; intros H.
      + apply andb_true_iff in H. destruct H as [H1 H2]. apply Z.eqb_eq in H1. apply Z.eqb_eq in H2. congruence.
      + (* rewriting in the goal: in the hypothesis the kernel would compare through [fmt_time] *)
        apply quote_injective in H. revert Htime. cbn [times_separated]. rewrite H, list_eqb_refl. exact (fun E => E).
  Qed.

  Lemma eq_key_notime : forall x y kx ky,
    is_primitive (val_type x) = true -> ty_eqb (val_type x) (val_type y) = true ->
    num_separated (nums_of x) (nums_of y) ->
    val_type x <> TTime ->
    key_of ops x = ([], OVal kx) -> key_of ops y = ([], OVal ky) ->
    (val_eqb ops x y = true <-> kx = ky).
  Proof.
    intros x y kx ky Hp Hty Hsep Hnt. apply eq_key_partial; try assumption.
    destruct x; try reflexivity. exfalso. apply Hnt. reflexivity.
  Qed.

  (* the statement without [times_separated] is false: nanoseconds are not confined to [0, 10^9) in the model *)
  Lemma eq_key_counterexample :
    let x := VTime 0 100000000 in let y := VTime 0 1000000000 in
    is_primitive (val_type x) = true /\ ty_eqb (val_type x) (val_type y) = true /\
    num_separated (nums_of x) (nums_of y) /\
    key_of ops x = key_of ops y /\ val_eqb ops x y = false.
  Proof.
    cbv zeta. split; [reflexivity|]. split; [reflexivity|]. split; [intros a b []|].
    split; vm_compute; reflexivity.
  Qed.

  Lemma Forall_sub {X} (P Q R S : X -> Prop) l :
    Forall (fun x => P x -> Q x -> R x -> S x) l -> Forall P l -> Forall Q l -> Forall R l -> Forall S l.
  Proof.
    intros H HP HQ HR. rewrite Forall_forall in *. auto.
  Qed.

  Lemma eq_refl : forall v, val_ok v = true -> fun_free v = true -> num_refl (nums_of v) -> val_eqb ops v v = true.
  Proof.
    unfold num_refl.
    induction v as [| | | |t vs IH|t kvs IH|t vs IH| |t x IH|] using val_ind'; intros Hok Hff Hnum.
    1-4: cbn [val_eqb val_type ty_eqb andb].
    - apply Hnum. left. reflexivity.
    - apply eqb_reflx.
    - apply list_eqb_refl.
    - rewrite !Z.eqb_refl. reflexivity.
    - (* list *)
      apply val_ok_list in Hok as (e & -> & [Hwf _] & [Hoks _]%Forall_and_inv).
      apply val_eqb_list_spec. split; [exact (C17Proofs.eq_refl _ Hwf)|]. apply Forall2_diag.
      cbn [fun_free nums_of] in Hff, Hnum. rewrite forallb_forall in Hff.
      rewrite Forall_forall in *. intros x Hx. apply IH; auto.
      intros b Hb. apply Hnum. apply in_flat_map. eauto.
    - (* map *)
      apply val_ok_map in Hok as (tk & e & -> & [Hwf _] & Hnd%nodup_keys_NoDup & [Hoks _]%Forall_and_inv).
      apply val_eqb_map_spec. split; [exact (C17Proofs.eq_refl _ Hwf)|]. split; [reflexivity|].
      intros k a Hin. exists a. split; [apply In_kget; assumption|].
      cbn [fun_free nums_of] in Hff, Hnum. rewrite forallb_forall in Hff.
      rewrite Forall_forall in *. apply (IH (k, a) Hin); [apply (Hoks (k, a) Hin)|apply (Hff (k, a) Hin)|].
      intros b Hb. apply Hnum. apply in_flat_map. exists (k, a). auto.
    - (* object *)
      apply val_ok_obj_inv in Hok. destruct Hok as [fs [-> [Hwf [Hnd [Hlen Hoks]]]]].
      apply (val_eqb_obj_spec _ _ _ _ _ Hlen). split; [exact (C17Proofs.eq_refl _ Hwf)|]. split; [reflexivity|].
      intros n a Hin. exists a.
      split; [apply In_assoc; [rewrite fields_keys by exact Hlen|]; assumption|].
      cbn [fun_free nums_of] in Hff, Hnum. rewrite forallb_forall in Hff.
      rewrite Forall_forall in *. apply in_combine_r in Hin. apply IH; auto.
      intros b Hb. apply Hnum. apply in_flat_map. eauto.
    - (* none, some *)
      destruct (val_ok_maybe _ _ Hok) as (e & -> & [Hwf _] & _).
      cbn [val_eqb val_type]. rewrite (C17Proofs.eq_refl (TMaybe e) Hwf). reflexivity.
    - destruct (val_ok_maybe _ _ Hok) as (e & -> & [Hwf _] & [Hx _]). cbn [val_eqb val_type].
      rewrite (C17Proofs.eq_refl (TMaybe e) Hwf). cbn [andb]. apply IH; assumption.
    - discriminate Hff.
  Qed.

  Ltac mismatch H := cbn [val_eqb] in H; rewrite ?andb_false_r in H; discriminate H.

  Lemma val_eqb_sym_imp : num_sym -> forall x y,
    val_ok x = true -> val_ok y = true -> funs_wf x = true -> funs_wf y = true ->
    val_eqb ops x y = true -> val_eqb ops y x = true.
  Proof.
    intros Hsym x.
    induction x as [| | | |t vs IH|t kvs IH|t vs IH| |t x IH|] using val_ind'; intros y Hox Hoy Hfx Hfy Heq;
      destruct y as [b'|b'|s'|s' n'|t' ys|t' ky|t' ys|t' oy|t' n' l']; try (mismatch Heq).
    1-4: cbn [val_eqb val_type ty_eqb andb] in *.
    - rewrite <- Hsym. exact Heq.
    - destruct b, b'; auto.
    - rewrite list_eqb_sym. exact Heq.
    - apply andb_true_iff in Heq. destruct Heq as [E1 E2]. rewrite Z.eqb_sym, E1, Z.eqb_sym, E2. reflexivity.
    - (* list *)
      apply val_ok_list in Hox as (e & -> & [Hwx _] & [Hox _]%Forall_and_inv).
      apply val_ok_list in Hoy as (e' & -> & [Hwy _] & [Hoy _]%Forall_and_inv).
      apply val_eqb_list_spec in Heq. destruct Heq as [Ht Hl].
      apply val_eqb_list_spec. split; [apply eqb_sym_imp; assumption|].
      cbn [funs_wf] in Hfx, Hfy. rewrite forallb_forall in Hfx, Hfy. rewrite Forall_forall in *.
      eapply Forall2_flip_in; [exact Hl|]. intros a b Ha Hb Hab. apply IH; auto.
    - (* map *)
      apply val_ok_map in Hox as (tk & e & -> & [Hwx _] & Hnx%nodup_keys_NoDup & [Hox _]%Forall_and_inv).
      apply val_ok_map in Hoy as (tk' & e' & -> & [Hwy _] & Hny%nodup_keys_NoDup & [Hoy _]%Forall_and_inv).
      apply val_eqb_map_spec in Heq. destruct Heq as (Ht & Hlen & Hm).
      apply val_eqb_map_spec. split; [apply eqb_sym_imp; assumption|]. split; [auto|].
      cbn [funs_wf] in Hfx, Hfy. rewrite forallb_forall in Hfx, Hfy. rewrite Forall_forall in *.
      intros k b Hin.
      destruct (all_get_flip (@kget) (@kget_In) (@In_kget) (@In_keys_kget) _ _ _ Hnx Hny Hlen Hm k b Hin) as [a [Ha Hab]].
      exists a. split; [assumption|]. apply kget_In in Ha.
      exact (IH (k, a) Ha b (Hox _ Ha) (Hoy _ Hin) (Hfx _ Ha) (Hfy _ Hin) Hab).
    - (* object *)
      apply val_ok_obj_inv in Hox. destruct Hox as [fx [-> [Hwx [Hnx [Hlx Hox]]]]].
      apply val_ok_obj_inv in Hoy. destruct Hoy as [fy [-> [Hwy [Hny [Hly Hoy]]]]].
      apply (val_eqb_obj_spec _ _ _ _ _ Hlx) in Heq. destruct Heq as (Ht & Hlen & Hm).
      apply (val_eqb_obj_spec _ _ _ _ _ Hly). split; [apply eqb_sym_imp; assumption|]. split; [auto|].
      cbn [funs_wf] in Hfx, Hfy. rewrite forallb_forall in Hfx, Hfy. rewrite Forall_forall in *.
      intros n b Hin.
      destruct (obj_flip _ _ _ _ Hnx Hny Hlx Hly Hlen _ Hm n b Hin) as [a [Ha Hab]].
      exists a. split; [assumption|]. apply assoc_In, in_combine_r in Ha. apply in_combine_r in Hin. apply IH; auto.
    - (* none *)
      destruct oy; [mismatch Heq|].
      destruct (val_ok_maybe _ _ Hox) as (e & -> & [Hwx _] & _). destruct (val_ok_maybe _ _ Hoy) as (e' & -> & [Hwy _] & _).
      cbn [val_eqb val_type] in *. rewrite andb_true_r in *. apply eqb_sym_imp; assumption.
    - (* some *)
      destruct oy; [|mismatch Heq].
      destruct (val_ok_maybe _ _ Hox) as (e & -> & [Hwx _] & [Hox' _]).
      destruct (val_ok_maybe _ _ Hoy) as (e' & -> & [Hwy _] & [Hoy' _]).
      cbn [val_eqb val_type] in *. apply andb_true_iff in Heq. destruct Heq as [Ht Hv].
      apply andb_true_iff. split; [apply eqb_sym_imp; assumption|].
      cbn [funs_wf] in Hfx, Hfy. apply IH; assumption.
    - (* function values *)
      cbn [val_eqb val_type funs_wf] in *. apply andb_true_iff in Heq. destruct Heq as [Ht Hn].
      apply andb_true_iff. split; [apply eqb_sym_imp; assumption|].
      rewrite String.eqb_sym. exact Hn.
  Qed.

  Lemma eq_sym_partial : forall x y, val_ok x = true -> val_ok y = true -> funs_wf x = true -> funs_wf y = true ->
    num_sym -> val_eqb ops x y = val_eqb ops y x.
  Proof.
    intros x y Hx Hy Fx Fy Hsym. apply Bool.eq_true_iff_eq. split; apply (val_eqb_sym_imp Hsym); assumption.
  Qed.

  Lemma eq_sym_fun_free : forall x y, val_ok x = true -> val_ok y = true -> fun_free x = true -> fun_free y = true ->
    num_sym -> val_eqb ops x y = val_eqb ops y x.
  Proof. intros x y Hx Hy Fx Fy. apply eq_sym_partial; auto using fun_free_funs_wf. Qed.

  (* [val_ok] does not ask the type carried by a function value to be well formed, and [ty_eqb] is not symmetric
     on object types with repeated field names *)
  Lemma eq_sym_counterexample :
    let x := VFun (TFun "f" [TObj [("a", TNum); ("a", TNum)]] TNum) "f" false in
    let y := VFun (TFun "f" [TObj [("a", TNum); ("b", TStr)]] TNum) "f" false in
    val_ok x = true /\ val_ok y = true /\ val_eqb ops x y = true /\ val_eqb ops y x = false.
  Proof. cbv zeta. repeat split; vm_compute; reflexivity. Qed.

  Local Definition rk (kvs : list (list N * val)) : list (list N * list N) :=
    map (fun kv => (fst kv, render ops (snd kv))) kvs.

  Definition render_kvs (l : list (list N * list N)) : list N :=
    match l with
    | [] => bytes_of_string "[:]"
    | _ => [91%N] ++ join_bytes (bytes_of_string ", ")
             (map (fun kr => fst kr ++ bytes_of_string ": " ++ snd kr) (sort_by fst l)) ++ [93%N]
    end.

  Lemma render_map t kvs : render ops (VMap t kvs) = render_kvs (rk kvs).
  Proof. destruct kvs; reflexivity. Qed.

  Local Definition named (fs : list (string * ty)) (vs : list val) : list (string * list N) :=
    combine (map fst fs) (map (render ops) vs).

  Definition render_named (l : list (string * list N)) : list N :=
    [123%N] ++ join_bytes (bytes_of_string ", ")
      (map (fun nr => bytes_of_string (fst nr) ++ bytes_of_string ": " ++ snd nr)
         (sort_by (fun nr => bytes_of_string (fst nr)) l)) ++ [125%N].

  Lemma render_obj fs vs : render ops (VObj (TObj fs) vs) = render_named (named fs vs).
  Proof. reflexivity. Qed.

  Lemma render_list t vs :
    render ops (VList t vs) = [91%N] ++ join_bytes (bytes_of_string ", ") (map (render ops) vs) ++ [93%N].
  Proof. reflexivity. Qed.

  Definition render_opt (e : ty) (o : option val) : list N :=
    match o with
    | None => bytes_of_string "Nothing#" ++ ty_bytes (canon e) ++ bytes_of_string "()"
    | Some x => bytes_of_string "Just#" ++ ty_bytes (canon e) ++ [40%N] ++ render ops x ++ [41%N]
    end.

  Lemma render_maybe e o : render ops (VMaybe (TMaybe e) o) = render_opt e o.
  Proof. destruct o; reflexivity. Qed.

  Lemma render_kvs_perm l l' : NoDup (map fst l) -> Permutation l l' -> render_kvs l = render_kvs l'.
  Proof.
    intros Hnd Hp. destruct l as [|a r], l' as [|b s].
    - reflexivity.
    - apply Permutation_nil in Hp. discriminate.
    - apply Permutation_sym in Hp. apply Permutation_nil in Hp. discriminate.
    - unfold render_kvs. rewrite (sort_by_perm_eq fst _ _ Hnd Hp). reflexivity.
  Qed.

  Lemma render_named_perm l l' : NoDup (map fst l) -> Permutation l l' -> render_named l = render_named l'.
  Proof.
    intros Hnd Hp. unfold render_named.
    rewrite (sort_by_perm_eq (fun nr : string * list N => bytes_of_string (fst nr)) l l'); [reflexivity| |exact Hp].
    rewrite <- (map_map fst bytes_of_string). apply FinFun.Injective_map_NoDup; [exact bytes_of_string_inj|exact Hnd].
  Qed.

  Lemma render_list_cong t xs t' ys :
    map (render ops) xs = map (render ops) ys -> render ops (VList t xs) = render ops (VList t' ys).
  Proof. intros E. rewrite !render_list, E. reflexivity. Qed.

  Lemma render_map_cong t kx t' ky :
    NoDup (map fst kx) -> Permutation (rk kx) (rk ky) -> render ops (VMap t kx) = render ops (VMap t' ky).
  Proof. intros Hn Hp. rewrite !render_map. apply render_kvs_perm; [unfold rk; rewrite map_fst_keyed; exact Hn|exact Hp]. Qed.

  Lemma render_obj_cong fx xs fy ys :
    NoDup (map fst fx) -> List.length fx = List.length xs -> Permutation (named fx xs) (named fy ys) ->
    render ops (VObj (TObj fx) xs) = render ops (VObj (TObj fy) ys).
  Proof.
    intros Hn Hl Hp. rewrite !render_obj. apply render_named_perm; [|exact Hp].
    unfold named. rewrite fields_keys by (rewrite map_length; exact Hl). exact Hn.
  Qed.

  Lemma render_maybe_cong e o e' o' :
    wf_ty (TMaybe e) = true -> wf_ty (TMaybe e') = true -> no_fun_ty (TMaybe e) = true ->
    ty_eqb (TMaybe e) (TMaybe e') = true ->
    match o, o' with
    | Some x, Some y => render ops x = render ops y
    | None, None => True
    | _, _ => False
    end ->
    render ops (VMaybe (TMaybe e) o) = render ops (VMaybe (TMaybe e') o').
  Proof.
    intros Hw Hw' Hnf Ht Ho. rewrite !render_maybe. unfold render_opt.
    rewrite (canon_eq e e' Hw Hw' Hnf Ht). destruct o, o'; try contradiction; [rewrite Ho|]; reflexivity.
  Qed.

  Lemma eq_render_partial : forall x y,
    val_ok x = true -> val_ok y = true -> fun_free x = true -> maybe_fn_free x = true ->
    num_separated (nums_of x) (nums_of y) ->
    val_eqb ops x y = true -> render ops x = render ops y.
  Proof.
    unfold num_separated. intros x.
    induction x as [| | | |t vs IH|t kvs IH|t vs IH| |t x IH|] using val_ind'; intros y Hox Hoy Hff Hmf Hsep Heq;
      destruct y as [b'|b'|s'|s' n'|t' ys|t' ky|t' ys|t' oy|t' n' l']; try (mismatch Heq).
    1-4: cbn [val_eqb val_type ty_eqb andb render] in *.
    - apply Hsep; simpl; auto.
    - apply eqb_prop in Heq. subst. reflexivity.
    - apply list_eqb_eq in Heq. subst. reflexivity.
    - apply andb_true_iff in Heq. destruct Heq as [E1 E2].
      apply Z.eqb_eq in E1. apply Z.eqb_eq in E2. subst. reflexivity.
    - (* list *)
      apply val_ok_list in Hox as (e & -> & _ & [Hox _]%Forall_and_inv).
      apply val_ok_list in Hoy as (e' & -> & _ & [Hoy _]%Forall_and_inv).
      apply val_eqb_list_spec in Heq. destruct Heq as [_ Hl]. apply render_list_cong.
      cbn [fun_free maybe_fn_free nums_of] in Hff, Hmf, Hsep. rewrite forallb_forall in Hff, Hmf.
      rewrite Forall_forall in *.
      eapply Forall2_map_eq; [exact Hl|]. intros a b Ha Hb Hab. apply IH; auto.
      intros p q Hp Hq. apply Hsep; apply in_flat_map; eauto.
    - (* map *)
      apply val_ok_map in Hox as (tk & e & -> & _ & Hnx%nodup_keys_NoDup & [Hox _]%Forall_and_inv).
      apply val_ok_map in Hoy as (tk' & e' & -> & _ & Hny%nodup_keys_NoDup & [Hoy _]%Forall_and_inv).
      apply val_eqb_map_spec in Heq. destruct Heq as (_ & Hlen & Hm).
      cbn [fun_free maybe_fn_free nums_of] in Hff, Hmf, Hsep. rewrite forallb_forall in Hff, Hmf.
      rewrite Forall_forall in *.
      apply render_map_cong; [assumption|]. apply (all_get_perm (@kget) (@kget_In)); try assumption. intros k a Hin.
      destruct (Hm k a Hin) as [b [Hb Hab]]. exists b. split; [exact Hb|]. apply kget_In in Hb.
      apply (IH (k, a) Hin b (Hox _ Hin) (Hoy _ Hb) (Hff _ Hin) (Hmf _ Hin)); [|exact Hab].
      intros p q Hp Hq. apply Hsep; apply in_flat_map; [exists (k, a)|exists (k, b)]; auto.
    - (* object *)
      apply val_ok_obj_inv in Hox. destruct Hox as [fx [-> [_ [Hnx [Hlx Hox]]]]].
      apply val_ok_obj_inv in Hoy. destruct Hoy as [fy [-> [_ [Hny [Hly Hoy]]]]].
      apply (val_eqb_obj_spec _ _ _ _ _ Hlx) in Heq. destruct Heq as (_ & Hlen & Hm).
      cbn [fun_free maybe_fn_free nums_of] in Hff, Hmf, Hsep. rewrite forallb_forall in Hff, Hmf.
      rewrite Forall_forall in *.
      apply render_obj_cong; try assumption. apply obj_perm; try assumption. intros n a Hin.
      destruct (Hm n a Hin) as [b [Hb Hab]]. exists b. split; [exact Hb|].
      apply assoc_In, in_combine_r in Hb. apply in_combine_r in Hin. apply IH; auto.
      intros p q Hp Hq. apply Hsep; apply in_flat_map; eauto.
    - (* none *)
      destruct oy; [mismatch Heq|].
      destruct (val_ok_maybe _ _ Hox) as (e & -> & [Hwx _] & _). destruct (val_ok_maybe _ _ Hoy) as (e' & -> & [Hwy _] & _).
      cbn [val_eqb val_type] in Heq. rewrite andb_true_r in Heq. cbn [maybe_fn_free] in Hmf. rewrite andb_true_r in Hmf.
      apply render_maybe_cong; auto.
    - (* some *)
      destruct oy; [|mismatch Heq].
      destruct (val_ok_maybe _ _ Hox) as (e & -> & [Hwx _] & [Hox' _]).
      destruct (val_ok_maybe _ _ Hoy) as (e' & -> & [Hwy _] & [Hoy' _]).
      cbn [val_eqb val_type] in Heq. apply andb_true_iff in Heq. destruct Heq as [Ht Hv].
      cbn [maybe_fn_free fun_free nums_of] in Hmf, Hff, Hsep. apply andb_true_iff in Hmf. destruct Hmf as [Hnf Hmf].
      apply render_maybe_cong; auto.
    - discriminate Hff.
  Qed.

  (* [ty_eqb] ignores function names, rendering prints them *)
  Lemma eq_render_counterexample :
    let x := VMaybe (TMaybe (TFun "f" [] TNum)) None in
    let y := VMaybe (TMaybe (TFun "g" [] TNum)) None in
    val_ok x = true /\ val_ok y = true /\ fun_free x = true /\ num_separated (nums_of x) (nums_of y) /\
    val_eqb ops x y = true /\ render ops x <> render ops y.
  Proof.
    cbv zeta. split; [reflexivity|]. split; [reflexivity|]. split; [reflexivity|]. split; [intros a b []|].
    split; [reflexivity|]. vm_compute. discriminate.
  Qed.

  Lemma render_canonical_partial : forall x y,
    val_ok x = true -> val_ok y = true -> maybe_fn_free x = true -> same_contents x y ->
    render ops x = render ops y.
  Proof.
    intros x.
    induction x as [| | | |t vs IH|t kvs IH|t vs IH| |t x IH|] using val_ind'; intros y Hox Hoy Hmf Hsc;
      inversion Hsc as [?|? ? ys Hf|? ? ky kz Hf Hperm|fx fy ? ys yz Hf Hperm ? ? ?|? t' ? y' Ht Hxy]; subst;
      try reflexivity.
    - apply val_ok_list in Hox as (e & -> & _ & [Hox _]%Forall_and_inv).
      apply val_ok_list in Hoy as (e' & -> & _ & [Hoy _]%Forall_and_inv).
      apply render_list_cong.
      cbn [maybe_fn_free] in Hmf. rewrite forallb_forall in Hmf. rewrite Forall_forall in *.
      eapply Forall2_map_eq; [exact Hf|]. intros a b Ha Hb Hab. apply IH; auto.
    - (* map: entry by entry the same renderings as [kz], which is [ky] in another order *)
      apply val_ok_map in Hox as (tk & e & -> & _ & Hnx%nodup_keys_NoDup & [Hox _]%Forall_and_inv).
      apply val_ok_map in Hoy as (tk' & e' & -> & _ & Hny%nodup_keys_NoDup & [Hoy _]%Forall_and_inv).
      cbn [maybe_fn_free] in Hmf. rewrite forallb_forall in Hmf. rewrite Forall_forall in *.
      assert (rk kvs = rk kz) as Ek.
      { unfold rk. eapply Forall2_map_eq; [exact Hf|].
        intros a b Ha Hb [Hk Hab]. cbv beta. rewrite Hk. f_equal.
        apply (IH a Ha); auto.
        apply Hoy. eapply Permutation_in; eauto. }
      apply render_map_cong; [assumption|]. rewrite Ek. unfold rk. apply Permutation_map. exact Hperm.
    - (* object: likewise with [yz], the values of [ys] in the order of [fx] *)
      apply val_ok_obj_inv in Hox. destruct Hox as [fx' [Efx [_ [Hnx [Hlx Hox]]]]]. injection Efx as <-.
      apply val_ok_obj_inv in Hoy. destruct Hoy as [fy' [Efy [_ [Hny [Hly Hoy]]]]]. injection Efy as <-.
      cbn [maybe_fn_free] in Hmf. rewrite forallb_forall in Hmf. rewrite Forall_forall in *.
      assert (List.length yz = List.length vs) as Hlz by (symmetry; eapply Forall2_len; eauto).
      assert (map (render ops) vs = map (render ops) yz) as Em.
      { eapply Forall2_map_eq; [exact Hf|]. intros a b Ha Hb Hab.
        apply IH; auto. apply Hoy.
        apply (Permutation_map snd) in Hperm. rewrite !map_snd_combine in Hperm by (rewrite map_length; lia).
        eapply Permutation_in; eassumption. }
      apply render_obj_cong; try assumption.
      unfold named. rewrite Em, !combine_map_r. apply Permutation_map. exact Hperm.
    - destruct (val_ok_maybe _ _ Hox) as (e & -> & [Hwx _] & [Hox' _]).
      destruct (val_ok_maybe _ _ Hoy) as (e' & -> & [Hwy _] & [Hoy' _]).
      cbn [maybe_fn_free] in Hmf. apply andb_true_iff in Hmf. destruct Hmf as [Hnf Hmf].
      apply render_maybe_cong; auto.
  Qed.

  Lemma render_canonical_counterexample :
    let fv := VFun (TFun "f" [] TNum) "h" false in
    let x := VMaybe (TMaybe (TFun "f" [] TNum)) (Some fv) in
    let y := VMaybe (TMaybe (TFun "g" [] TNum)) (Some fv) in
    val_ok x = true /\ val_ok y = true /\ same_contents x y /\ render ops x <> render ops y.
  Proof.
    cbv zeta. split; [reflexivity|]. split; [reflexivity|]. split.
    - apply sc_maybe; [reflexivity|apply sc_refl].
    - vm_compute. discriminate.
  Qed.
End C18.

Print Assumptions quote_injective.
Print Assumptions big_distinct.
Print Assumptions eq_refl.
Print Assumptions eq_key_partial.
Print Assumptions eq_sym_partial.
Print Assumptions eq_render_partial.
Print Assumptions render_canonical_partial.
