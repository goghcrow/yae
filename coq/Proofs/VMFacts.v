(* What the proofs about the bytecode VM (C03) and about the verifier (C11) share: the dispatch loop of [vm_run]
   under names ([vop] one instruction, [vmloop] the loop), and the shape of compiled code: [cshape a pc pl frag pf]
   says which bytes and which constants [compile] emits for [a] at a code offset and a pool index ([compile_shape]),
   so that both proofs are about fragments and never about compiler states.  At the end, what the tables of
   Gen/Generated.v say of the intrinsics: which rows are strict, which lazy, and the opcode of each ([cbv_info], [cbn_info]). *)
From Coq Require Import List String Ascii Bool NArith ZArith Lia.
From Yae Require Import Base.Sexp Model.Ty Gen.Generated Model.Unify Model.Num Model.Lexer Model.Literal Model.Cst
  Model.Check Model.Val Model.Render Model.Builtins Model.Eval Model.VM Proofs.ValFacts Proofs.EvalFacts Proofs.AexprInd.
(* not imported: [C17Proofs.eq_refl] would hide [Logic.eq_refl] *)
From Yae Require Proofs.ListFacts Proofs.C17Proofs.
From Yae Require Import Proofs.C05Proofs.
Import ListNotations.
Local Open Scope string_scope.
Local Open Scope list_scope.

Lemma decode_op_byte o : decode_op (op_byte o) = Some o.
Proof. destruct o; vm_compute; reflexivity. Qed.

Section Loop.
  Variable ops : numops.
  Variable orc : oracles.
  Variable rho : venv.
  Variable pool : list const.
  Variable run : list N -> M val.
  Variable code : list N.

  Definition vm_entries : list val -> list (list N * val) -> M (list (list N * val)) :=
    fix go (vs : list val) (acc : list (list N * val)) : M (list (list N * val)) :=
      match vs with
      | k :: v :: rr => let^ kk := key_of ops k in go rr (kput kk v acc)
      | _ => ret acc
      end.

  (* a value under CALL_BY_NEED is a fault: the compiler defers all arguments of such a call or none *)
  Definition thunk_of (x : sval) : M (unit -> M val) :=
    match x with STh body _ => ret (fun (_ : unit) => run body) | SV _ => fault XTypeConf end.

  (* [vop] and [vmloop] are the body of [go] in [vm_run] (Model/VM.v) text for text; [vm_run_S] fails if they drift *)
  Definition vop (continue : list N -> list sval -> M val) (o : opcode) (r : list N) (stack : list sval) : M val :=
    match o with
    | OP_NOP => continue r stack
    | OP_ADD_NUM => continue r stack
    | OP_RETURN => let^ (v, _) := pop_val stack in ret v
    | OP_CONST =>
        let^ (c, r1) := read_const pool r in
        match c with
        | CVal v => continue r1 (SV v :: stack)
        | CThunk body rt => continue r1 (STh body rt :: stack)
        | _ => fault XTypeConf
        end
    | OP_LOAD =>
        let^ (c, r1) := read_const pool r in
        match c with
        | CName nm => match assoc nm rho with Some v => continue r1 (SV v :: stack) | None => fault XNil end
        | _ => fault XTypeConf
        end
    | OP_JUMP => let^ (t, _) := read16 r in continue (skipn (N.to_nat t) code) stack
    | OP_IF_TRUE =>
        let^ (t, r1) := read16 r in
        let^ (v, s1) := pop_val stack in
        let^ bv := as_bool v in
        if bv then continue r1 s1 else continue (skipn (N.to_nat t) code) s1
    | OP_NEW_LIST =>
        let^ (c, r1) := read_const pool r in let^ (sz, r2) := read16 r1 in
        match c with
        | CType (TList e) =>
            let^ (xs, s1) := pop_n (N.to_nat sz) stack [] in let^ vs := vals_of xs in
            continue r2 (SV (VList (TList e) vs) :: s1)
        | _ => fault XTypeConf
        end
    | OP_NEW_MAP =>
        let^ (c, r1) := read_const pool r in let^ (sz, r2) := read16 r1 in
        match c with
        | CType (TMap kt vt) =>
            let^ (xs, s1) := pop_n (2 * N.to_nat sz) stack [] in let^ vs := vals_of xs in
            let^ entries := vm_entries vs [] in
            continue r2 (SV (VMap (TMap kt vt) entries) :: s1)
        | _ => fault XTypeConf
        end
    | OP_NEW_OBJ =>
        let^ (c, r1) := read_const pool r in
        match c with
        | CType (TObj fs) =>
            let^ (xs, s1) := pop_n (len fs) stack [] in let^ vs := vals_of xs in
            continue r1 (SV (VObj (TObj fs) vs) :: s1)
        | _ => fault XTypeConf
        end
    | OP_LIST_LOAD =>
        let^ (iv, s1) := pop_val stack in let^ nb := as_num iv in
        let^ (lv, s2) := pop_val s1 in let^ vs := as_list lv in
        let idx := to_i64 ops nb in
        if Z.ltb idx 0 || Z.leb (Z.of_nat (len vs)) idx then fail FIndex
        else match nth_error vs (Z.to_nat idx) with Some e => continue r (SV e :: s2) | None => fail FIndex end
    | OP_MAP_LOAD =>
        let^ (kv, s1) := pop_val stack in
        let^ (mv, s2) := pop_val s1 in let^ kvs := as_map mv in
        let^ kk := key_of ops kv in
        match kget kk kvs with Some e => continue r (SV e :: s2) | None => fail FKey end
    | OP_OBJ_LOAD =>
        let^ (idx, r1) := read16 r in let^ (c, r2) := read_const pool r1 in
        let^ (ov, s1) := pop_val stack in
        match c, ov with
        | CName nm, VObj t vs =>
            match obj_load t vs (N.to_nat idx) nm with Some e => continue r2 (SV e :: s1) | None => fault XNil end
        | _, _ => fault XTypeConf
        end
    | OP_CALL_BY_VALUE =>
        let^ (c, r1) := read_const pool r in let^ (argc, r2) := read8 r1 in
        match c with
        | CFun sg =>
            let^ (xs, s1) := pop_n (N.to_nat argc) stack [] in let^ vs := vals_of xs in
            let^ res := apply_strict ops orc sg vs in
            continue r2 (SV res :: s1)
        | _ => fault XTypeConf
        end
    | OP_CALL_BY_NEED =>
        let^ (c, r1) := read_const pool r in let^ (argc, r2) := read8 r1 in
        match c with
        | CFun sg =>
            let^ (xs, s1) := pop_n (N.to_nat argc) stack [] in
            let^ ths := mmapM thunk_of xs in
            let^ res := lazy_call sg ths in
            continue r2 (SV res :: s1)
        | _ => fault XTypeConf
        end
    | OP_DYNAMIC_CALL =>
        let^ (argc, r1) := read8 r in
        let^ (xs, s1) := pop_n (N.to_nat argc) stack [] in let^ vs := vals_of xs in
        let^ (fv, s2) := pop_val s1 in
        match fv with
        | VFun (TFun _ ps rt) name lz =>
            if lz then fault XNil
            else let^ res := apply_strict ops orc (mkSig name ps rt false) vs in continue r1 (SV res :: s2)
        | _ => fault XTypeConf
        end
    | _ =>
        match intrinsic_sem o with
        | Some (bf, k) =>
            let^ (xs, s1) := pop_n k stack [] in let^ vs := vals_of xs in
            let^ res := bsem ops orc bf vs in
            continue r (SV res :: s1)
        | None => fault XOpcode
        end
    end.

  Fixpoint vmloop (g : nat) (rest : list N) (stack : list sval) (n : option nat) {struct g} : M val :=
    match g with
    | O => fault XFuel
    | S g' =>
      match n with
      | Some O => fault XLimit
      | _ =>
        let n' := option_map pred n in
        match rest with
        | [] => fault XOther
        | b :: r =>
          match decode_op b with
          | None => fault XOpcode
          | Some o => vop (fun r s => vmloop g' r s n') o r stack
          end
        end
      end
    end.
End Loop.

Lemma vm_run_S ops orc rho pool limit f code :
  vm_run ops orc rho pool limit (S f) code =
  vmloop ops orc rho pool (vm_run ops orc rho pool limit f) code (4 * S (len code)) code [] limit.
Proof.
  (* [reflexivity] alone would also unfold the inner [vm_run f] on the left and compare two copies of the loop body;
     unfolding [vmloop] and [vop] on the right, and one layer of [vm_run] on the left, leaves [vm_run f] folded *)
  cbv delta [vmloop vop thunk_of vm_entries lazy_call] beta. cbn [vm_run]. reflexivity.
Qed.

Lemma vmloop_S ops orc rho pool run code g b r s n :
  vmloop ops orc rho pool run code (S g) (b :: r) s n =
  match n with
  | Some O => fault XLimit
  | _ => match decode_op b with
         | None => fault XOpcode
         | Some o => vop ops orc rho pool run code (fun r s => vmloop ops orc rho pool run code g r s (option_map pred n)) o r s
         end
  end.
Proof. reflexivity. Qed.

(* ADD_NUM, unary plus, has an entry in [intrinsic_sem] but is a no-op of the loop *)
Lemma vop_intrinsic ops orc rho pool run code cont o bf k r s : intrinsic_sem o = Some (bf, k) -> o <> OP_ADD_NUM ->
  vop ops orc rho pool run code cont o r s =
  (let^ (xs, s1) := pop_n k s [] in let^ vs := vals_of xs in let^ res := bsem ops orc bf vs in cont r (SV res :: s1)).
Proof.
  intros H Hn. destruct o; try discriminate H; try (exfalso; apply Hn; reflexivity); injection H as <- <-; reflexivity.
Qed.

Lemma add_num_dec o : o = OP_ADD_NUM \/ o <> OP_ADD_NUM.
Proof. destruct o; (left; reflexivity) || (right; discriminate). Qed.

Lemma pop_n_app : forall ys s acc, pop_n (List.length ys) (ys ++ s) acc = ret (rev ys ++ acc, s).
Proof.
  induction ys as [|y ys IH]; intros s acc; cbn [List.length pop_n app rev].
  - reflexivity.
  - unfold pop at 1. rewrite mbind_ret_l, IH, <- app_assoc. reflexivity.
Qed.

Lemma pop_n_ok n s acc : (n <= List.length s)%nat -> pop_n n s acc = ret (rev (firstn n s) ++ acc, skipn n s).
Proof. intros H. rewrite <- (firstn_skipn n s) at 1. rewrite <- (firstn_length_le s H) at 1. apply pop_n_app. Qed.

Lemma pop_n_rev : forall xs s, pop_n (List.length xs) (rev xs ++ s) [] = ret (xs, s).
Proof. intros xs s. rewrite <- (rev_length xs), pop_n_app, rev_involutive, app_nil_r. reflexivity. Qed.

Lemma pop_val_SV : forall v s, pop_val (SV v :: s) = ret (v, s).
Proof. intros. unfold pop_val, pop. rewrite mbind_ret_l. reflexivity. Qed.

Lemma vals_of_SV : forall vs, vals_of (map SV vs) = ret vs.
Proof.
  unfold vals_of. induction vs as [|v vs IH]; [reflexivity|].
  cbn [map mmapM]. rewrite mbind_ret_l. cbn [map mmapM] in IH. rewrite IH, mbind_ret_l. reflexivity.
Qed.

Section CompileEq.
Variable ops : numops.
Variable orc : oracles.
Variable fe : fenv.
Notation cmp := (compile ops orc fe).

Fixpoint clist (l : list aexpr) (st : cstate) : cres cstate :=
  match l with [] => COk st | x :: r => let+ st1 := cmp x st in clist r st1 end.
Fixpoint cmap (l : list (aexpr * aexpr)) (st : cstate) : cres cstate :=
  match l with
  | [] => COk st
  | (k, v) :: r => let+ s1 := cmp k st in let+ s2 := cmp v s1 in cmap r s2
  end.
Fixpoint cobj (l : list (string * aexpr)) (st : cstate) : cres cstate :=
  match l with [] => COk st | (_, v) :: r => let+ s1 := cmp v st in cobj r s1 end.
Definition cbranch (br : aexpr + bool) (st : cstate) : cres cstate :=
  match br with
  | inl e => cmp e st
  | inr b => emit_const (CVal (VBool b)) (emit_op OP_CONST st)
  end.
Definition ccond (c : aexpr) (t e : aexpr + bool) (st : cstate) : cres cstate :=
  let+ st1 := cmp c st in
  let st2 := emit_op OP_IF_TRUE st1 in
  let off_false := cs_clen st2 in
  let+ st3 := emit16 0 st2 in
  let+ st4 := cbranch t st3 in
  let st5 := emit_op OP_JUMP st4 in
  let off_next := cs_clen st5 in
  let+ st6 := emit16 0 st5 in
  let branch_false := cs_clen st6 in
  let+ st7 := cbranch e st6 in
  let next := cs_clen st7 in
  let+ st8 := patch16 off_false branch_false st7 in
  patch16 off_next next st8.
Definition cargs (sg : fsig) : list aexpr -> nat -> cstate -> cres cstate :=
  fix go (l : list aexpr) (i : nat) (st : cstate) {struct l} : cres cstate :=
  match l with
  | [] => COk st
  | x :: r =>
      if s_lazy sg then
        let+ sub := cmp x (cs_empty (cs_rpool st) (cs_plen st)) in
        let body := rev (cs_rcode (emit_op OP_RETURN sub)) in
        let st' := mkCS (cs_rcode st) (cs_clen st) (cs_rpool sub) (cs_plen sub) in
        let+ st'' := emit_const (CThunk body (thunk_ret sg i)) (emit_op OP_CONST st') in
        go r (S i) st''
      else let+ st' := cmp x st in go r (S i) st'
  end.

Lemma compile_eq a st :
  cmp a st =
  match a with
  | AStr v => emit_const (CVal (VStr v)) (emit_op OP_CONST st)
  | ANum _ n => emit_const (CVal (VNum (lit_num ops n))) (emit_op OP_CONST st)
  | ATime t => emit_const (CVal (VTime (o_strtotime orc (time_inner t)) 0)) (emit_op OP_CONST st)
  | ABool b => emit_const (CVal (VBool b)) (emit_op OP_CONST st)
  | AList t es =>
      let+ st1 := clist es st in
      let+ st2 := emit_const (CType t) (emit_op OP_NEW_LIST st1) in
      emit16 (N.of_nat (len es)) st2
  | AMap t kvs =>
      let+ st1 := cmap kvs st in
      let+ st2 := emit_const (CType t) (emit_op OP_NEW_MAP st1) in
      emit16 (N.of_nat (len kvs)) st2
  | AObj t fs =>
      let+ st1 := cobj fs st in
      emit_const (CType t) (emit_op OP_NEW_OBJ st1)
  | AIdent _ name => emit_const (CName name) (emit_op OP_LOAD st)
  | ACall _ key idx _ callee args =>
      if String.eqb key "" then
        let+ st1 := cmp callee st in
        let+ st2 := clist args st1 in
        emit8 (N.of_nat (len args)) (emit_op OP_DYNAMIC_CALL st2)
      else
        match lookup_fn fe key idx with
        | None => CErr
        | Some sg =>
            match intrinsic_cbn sg, args with
            | Some BIf, [c; t; e] => ccond c (inl t) (inl e) st
            | Some BAnd, [x; y] => ccond x (inl y) (inr false) st
            | Some BOr, [x; y] => ccond x (inr true) (inl y) st
            | Some BNot, [x] => let+ st1 := cmp x st in COk (emit_op OP_LOGICAL_NOT st1)
            | Some _, _ => CErr
            | None, _ =>
                let+ st1 := cargs sg args O st in
                match intrinsic_cbv sg with
                | Some o => COk (emit_op o st1)
                | None =>
                    let o := if s_lazy sg then OP_CALL_BY_NEED else OP_CALL_BY_VALUE in
                    let+ st2 := emit_const (CFun sg) (emit_op o st1) in
                    emit8 (N.of_nat (len args)) st2
                end
            end
        end
  | ASub _ vty v i =>
      let+ st1 := cmp v st in
      let+ st2 := cmp i st1 in
      if ty_is_list vty then COk (emit_op OP_LIST_LOAD st2)
      else if ty_is_map vty then COk (emit_op OP_MAP_LOAD st2)
      else CErr
  | AMember _ _ idx o name =>
      let+ st1 := cmp o st in
      let+ st2 := emit16 (N.of_nat idx) (emit_op OP_OBJ_LOAD st1) in
      emit_const (CName name) st2
  end.
Proof. destruct a; reflexivity. Qed.
End CompileEq.

Definition st_wf (st : cstate) : Prop :=
  cs_clen st = N.of_nat (List.length (cs_rcode st)) /\ cs_plen st = N.of_nat (List.length (cs_rpool st)).

Definition st_at (st : cstate) (pc pl : nat) : Prop :=
  st_wf st /\ List.length (cs_rcode st) = pc /\ List.length (cs_rpool st) = pl.

Definition ext (st st' : cstate) (frag : list N) (pf : list const) : Prop :=
  cs_rcode st' = rev frag ++ cs_rcode st /\ cs_clen st' = (cs_clen st + N.of_nat (List.length frag))%N /\
  cs_rpool st' = rev pf ++ cs_rpool st /\ cs_plen st' = (cs_plen st + N.of_nat (List.length pf))%N.

Lemma at_clen {st pc pl} : st_at st pc pl -> cs_clen st = N.of_nat pc.
Proof. intros ([W _] & <- & _). exact W. Qed.

Lemma at_plen {st pc pl} : st_at st pc pl -> cs_plen st = N.of_nat pl.
Proof. intros ([_ W] & _ & <-). exact W. Qed.

Lemma at_eq {st pc pl pc' pl'} : st_at st pc pl -> pc = pc' -> pl = pl' -> st_at st pc' pl'.
Proof. intros H <- <-. exact H. Qed.

Lemma ext_refl st : ext st st [] [].
Proof. unfold ext. cbn. rewrite !N.add_0_r. auto. Qed.

Lemma ext_trans {a b c f1 p1 f2 p2} : ext a b f1 p1 -> ext b c f2 p2 -> ext a c (f1 ++ f2) (p1 ++ p2).
Proof.
  intros [A1 [A2 [A3 A4]]] [B1 [B2 [B3 B4]]]. unfold ext.
  rewrite B1, B2, B3, B4, A1, A2, A3, A4, !rev_app_distr, !app_length, !app_assoc. repeat split; lia.
Qed.

Lemma ext_trans_code {a b c f1 p1 f2} : ext a b f1 p1 -> ext b c f2 [] -> ext a c (f1 ++ f2) p1.
Proof. intros E1 E2. rewrite <- (app_nil_r p1). exact (ext_trans E1 E2). Qed.

Lemma ext_at {a b pc pl f p} : st_at a pc pl -> ext a b f p -> st_at b (pc + List.length f) (pl + List.length p).
Proof.
  intros ([W1 W2] & <- & <-) [A1 [A2 [A3 A4]]]. unfold st_at, st_wf.
  rewrite A1, A2, A3, A4, W1, W2, !app_length, !rev_length. repeat split; lia.
Qed.

Lemma ext_code {a b f p} : ext a b f p -> rev (cs_rcode b) = rev (cs_rcode a) ++ f.
Proof. intros [A1 _]. rewrite A1, rev_app_distr, rev_involutive. reflexivity. Qed.

Lemma ext_pool {a b f p} : ext a b f p -> rev (cs_rpool b) = rev (cs_rpool a) ++ p.
Proof. intros [_ [_ [A3 _]]]. rewrite A3, rev_app_distr, rev_involutive. reflexivity. Qed.

Lemma ext_emit_byte b st : ext st (emit_byte b st) [b] [].
Proof. unfold ext, emit_byte. cbn. rewrite N.add_0_r. auto. Qed.

Lemma ext_emit_op o st : ext st (emit_op o st) [op_byte o] [].
Proof. apply ext_emit_byte. Qed.

(* [read16] ([read16_b16]) and the verifier's decoder give [n] back whatever its size, by [b16_val] *)
Definition b16 (n : N) : list N := [(n / 256)%N; (n mod 256)%N].

Lemma b16_len : forall n, List.length (b16 n) = 2%nat.
Proof. reflexivity. Qed.

Ltac lens := repeat first [ rewrite app_length | rewrite b16_len | progress cbn [List.length] ].

Lemma b16_val : forall n, (n / 256 * 256 + n mod 256 = n)%N.
Proof. intros n. pose proof (N.div_mod n 256). lia. Qed.

Lemma read16_b16 : forall n r, read16 (b16 n ++ r) = ret (n, r).
Proof. intros n r. unfold b16, read16. cbn [app]. rewrite b16_val. reflexivity. Qed.

Lemma read_const_b16 : forall pool i r c, nth_error pool i = Some c -> read_const pool (b16 (N.of_nat i) ++ r) = ret (c, r).
Proof. intros pool i r c H. unfold read_const. rewrite read16_b16, mbind_ret_l, Nat2N.id, H. reflexivity. Qed.

Lemma emit16_ext {n st st'} : emit16 n st = COk st' -> ext st st' (b16 n) [].
Proof.
  intros H. unfold emit16 in H. destruct (N.leb n 65535); [|discriminate]. injection H as <-.
  exact (ext_trans (f1 := [_]) (p1 := []) (ext_emit_byte _ _) (ext_emit_byte _ _)).
Qed.

Lemma emit8_ext {n st st'} : emit8 n st = COk st' -> ext st st' [n] [].
Proof. intros H. unfold emit8 in H. destruct (N.leb n 255); [|discriminate]. injection H as <-. apply ext_emit_byte. Qed.

Lemma emit_const_ext {c st st' pc pl} : st_at st pc pl -> emit_const c st = COk st' -> ext st st' (b16 (N.of_nat pl)) [c].
Proof.
  intros W H. unfold emit_const in H. apply emit16_ext in H. rewrite (at_plen W) in H. destruct H as [A1 [A2 [A3 A4]]].
  cbn in *. unfold ext. cbn. repeat split; try assumption. rewrite A4, (at_plen W). lia.
Qed.

Lemma const_instr_ext {o c st st' pc pl} : st_at st pc pl -> emit_const c (emit_op o st) = COk st' ->
  ext st st' (op_byte o :: b16 (N.of_nat pl)) [c].
Proof.
  intros W H. refine (ext_trans (f1 := [_]) (p1 := []) (ext_emit_op o st) (emit_const_ext _ H)).
  exact (at_eq (ext_at W (ext_emit_op o st)) eq_refl (Nat.add_0_r pl)).
Qed.

Lemma set_nth_app : forall l1 x l2 y, set_nth (l1 ++ x :: l2) (List.length l1) y = l1 ++ y :: l2.
Proof. induction l1 as [|a l1 IH]; intros; cbn; [reflexivity|rewrite IH; reflexivity]. Qed.

Lemma patch16_ext {st st7 st8 pc pl f1 x f2 pf off v} :
  st_at st pc pl -> ext st st7 (f1 ++ b16 x ++ f2) pf -> off = N.of_nat (pc + List.length f1) ->
  patch16 off v st7 = COk st8 -> ext st st8 (f1 ++ b16 v ++ f2) pf.
Proof.
  intros (_ & Lc & _) Hext -> H. unfold patch16 in H. destruct (N.leb v 65535); [|discriminate]. injection H as <-.
  rewrite (ext_code Hext). destruct Hext as [A1 [A2 [A3 A4]]].
  set (pre := rev (cs_rcode st) ++ f1).
  assert (Hn : N.to_nat (N.of_nat (pc + List.length f1)) = List.length pre).
  { unfold pre. rewrite Nat2N.id, app_length, rev_length, Lc. reflexivity. }
  rewrite Hn, app_assoc. fold pre. cbn [b16 app]. rewrite set_nth_app.
  replace (List.length pre + 1)%nat with (List.length (pre ++ [(v / 256)%N])) by (rewrite app_length; reflexivity).
  replace (pre ++ (v / 256)%N :: (x mod 256)%N :: f2) with ((pre ++ [(v / 256)%N]) ++ (x mod 256)%N :: f2)
    by (rewrite <- app_assoc; reflexivity).
  rewrite set_nth_app.
  unfold ext. cbn [cs_rcode cs_clen cs_rpool cs_plen]. repeat split; try assumption.
  - unfold pre. rewrite <- (rev_involutive (cs_rcode st)) at 2. rewrite <- rev_app_distr. f_equal. rewrite <- !app_assoc. reflexivity.
  - rewrite A2, !app_length. reflexivity.
Qed.

Definition flatten (kvs : list (aexpr * aexpr)) : list aexpr := flat_map (fun kv => [fst kv; snd kv]) kvs.

Lemma flatten_len kvs : len (flatten kvs) = (2 * len kvs)%nat.
Proof. unfold len. induction kvs as [|kv r IH]; [reflexivity|]. cbn [flatten flat_map app List.length] in *. fold (flatten r). lia. Qed.

(* condition, branch taken when it holds, branch taken when it does not *)
Definition cond_parts (b : bfun) (args : list aexpr) : option (aexpr * (aexpr + bool) * (aexpr + bool)) :=
  match b, args with
  | BIf, [c; t; e] => Some (c, inl t, inl e)
  | BAnd, [x; y] => Some (x, inl y, inr false)
  | BOr, [x; y] => Some (x, inr true, inl y)
  | _, _ => None
  end.

Definition on_branch (P : aexpr -> Prop) (br : aexpr + bool) : Prop := match br with inl e => P e | inr _ => True end.

Lemma cond_parts_Forall (P : aexpr -> Prop) b args x t e :
  Forall P args -> cond_parts b args = Some (x, t, e) -> P x /\ on_branch P t /\ on_branch P e.
Proof.
  intros HF H. rewrite Forall_forall in HF.
  destruct b; try discriminate H; destruct args as [|a1 [|a2 [|a3 [|a4 r]]]]; try discriminate H; injection H as <- <- <-;
    cbn [on_branch]; repeat split; apply HF; cbn [In]; auto.
Qed.

(* 3 = an opcode byte and its 16-bit operand *)
Definition cond_code (pc : nat) (fx ft fe : list N) : list N :=
  let second := (pc + List.length fx + 3 + List.length ft + 3)%nat in
  fx ++ (op_byte OP_IF_TRUE :: b16 (N.of_nat second)) ++ ft ++
  (op_byte OP_JUMP :: b16 (N.of_nat (second + List.length fe))) ++ fe.

Definition sub_op (vty : ty) : option opcode :=
  if ty_is_list vty then Some OP_LIST_LOAD else if ty_is_map vty then Some OP_MAP_LOAD else None.

Definition pool_at (pl : nat) (p pool : list const) : Prop :=
  forall i c, nth_error p i = Some c -> nth_error pool (pl + i) = Some c.

Lemma pool_at_app pl p1 p2 pool :
  pool_at pl (p1 ++ p2) pool -> pool_at pl p1 pool /\ pool_at (pl + List.length p1) p2 pool.
Proof.
  intros H. split; intros i c Hi.
  - apply H. rewrite nth_error_app1; [exact Hi|]. apply nth_error_Some. congruence.
  - rewrite <- Nat.add_assoc. apply H. rewrite nth_error_app2 by lia.
    replace (List.length p1 + i - List.length p1)%nat with i by lia. exact Hi.
Qed.

Lemma pool_at_cons pl c p pool : pool_at pl (c :: p) pool -> nth_error pool pl = Some c /\ pool_at (S pl) p pool.
Proof.
  intros H. split; [rewrite <- (Nat.add_0_r pl); exact (H 0%nat c eq_refl)|].
  intros i d Hi. cbn [Nat.add]. rewrite plus_n_Sm. exact (H (S i) d Hi).
Qed.

Lemma pool_at_hd pl c p pool : pool_at pl (c :: p) pool -> nth_error pool pl = Some c.
Proof. intros H. exact (proj1 (pool_at_cons _ _ _ _ H)). Qed.

Lemma pool_at_last pl p c pool : pool_at pl (p ++ [c]) pool -> nth_error pool (pl + List.length p) = Some c.
Proof. intros H. exact (pool_at_hd _ _ _ _ (proj2 (pool_at_app _ _ _ _ H))). Qed.

Section Shape.
Variable ops : numops.
Variable orc : oracles.
Variable fe : fenv.
Notation cmp := (compile ops orc fe).

Definition leaf_val (a : aexpr) : option val :=
  match a with
  | AStr v => Some (VStr v)
  | ANum _ n => Some (VNum (lit_num ops n))
  | ATime t => Some (VTime (o_strtotime orc (time_inner t)) 0)
  | ABool b => Some (VBool b)
  | _ => None
  end.

(* Jump targets are absolute offsets, hence [pc]; a deferred argument is a code object of its own, compiled at offset 0
   over the same pool and closed by RETURN, held in a CThunk constant. *)
Inductive cshape : aexpr -> nat -> nat -> list N -> list const -> Prop :=
| S_leaf a v pc pl : leaf_val a = Some v -> cshape a pc pl (op_byte OP_CONST :: b16 (N.of_nat pl)) [CVal v]
| S_ident c n pc pl : cshape (AIdent c n) pc pl (op_byte OP_LOAD :: b16 (N.of_nat pl)) [CName n]
| S_list t es pc pl f p : cshapes es pc pl f p ->
    cshape (AList t es) pc pl
      (f ++ op_byte OP_NEW_LIST :: b16 (N.of_nat (pl + List.length p)) ++ b16 (N.of_nat (len es))) (p ++ [CType t])
| S_map t kvs pc pl f p : cshapes (flatten kvs) pc pl f p ->
    cshape (AMap t kvs) pc pl
      (f ++ op_byte OP_NEW_MAP :: b16 (N.of_nat (pl + List.length p)) ++ b16 (N.of_nat (len kvs))) (p ++ [CType t])
| S_obj t fs pc pl f p : cshapes (map snd fs) pc pl f p ->
    cshape (AObj t fs) pc pl (f ++ op_byte OP_NEW_OBJ :: b16 (N.of_nat (pl + List.length p))) (p ++ [CType t])
| S_dynamic c key idx ft callee args pc pl f1 p1 f2 p2 : String.eqb key "" = true ->
    cshape callee pc pl f1 p1 -> cshapes args (pc + List.length f1) (pl + List.length p1) f2 p2 ->
    cshape (ACall c key idx ft callee args) pc pl (f1 ++ f2 ++ [op_byte OP_DYNAMIC_CALL; N.of_nat (len args)]) (p1 ++ p2)
| S_cond c key idx ft callee args sg b x t e pc pl fx px ft' pt fe' pe :
    String.eqb key "" = false -> lookup_fn fe key idx = Some sg -> intrinsic_cbn sg = Some b ->
    cond_parts b args = Some (x, t, e) ->
    cshape x pc pl fx px ->
    bshape t (pc + List.length fx + 3) (pl + List.length px) ft' pt ->
    bshape e (pc + List.length fx + 3 + List.length ft' + 3) (pl + List.length px + List.length pt) fe' pe ->
    cshape (ACall c key idx ft callee args) pc pl (cond_code pc fx ft' fe') (px ++ pt ++ pe)
| S_not c key idx ft callee sg x pc pl f p :
    String.eqb key "" = false -> lookup_fn fe key idx = Some sg -> intrinsic_cbn sg = Some BNot ->
    cshape x pc pl f p ->
    cshape (ACall c key idx ft callee [x]) pc pl (f ++ [op_byte OP_LOGICAL_NOT]) p
| S_intrinsic c key idx ft callee args sg o pc pl f p :
    String.eqb key "" = false -> lookup_fn fe key idx = Some sg -> intrinsic_cbn sg = None -> intrinsic_cbv sg = Some o ->
    ashape sg args pc pl f p ->
    cshape (ACall c key idx ft callee args) pc pl (f ++ [op_byte o]) p
| S_call c key idx ft callee args sg pc pl f p :
    String.eqb key "" = false -> lookup_fn fe key idx = Some sg -> intrinsic_cbn sg = None -> intrinsic_cbv sg = None ->
    ashape sg args pc pl f p ->
    cshape (ACall c key idx ft callee args) pc pl
      (f ++ op_byte (if s_lazy sg then OP_CALL_BY_NEED else OP_CALL_BY_VALUE) :: b16 (N.of_nat (pl + List.length p)) ++
       [N.of_nat (len args)]) (p ++ [CFun sg])
| S_sub c vty v i o pc pl f1 p1 f2 p2 : sub_op vty = Some o ->
    cshape v pc pl f1 p1 -> cshape i (pc + List.length f1) (pl + List.length p1) f2 p2 ->
    cshape (ASub c vty v i) pc pl (f1 ++ f2 ++ [op_byte o]) (p1 ++ p2)
| S_member c oty idx o n pc pl f p : cshape o pc pl f p ->
    cshape (AMember c oty idx o n) pc pl
      (f ++ op_byte OP_OBJ_LOAD :: b16 (N.of_nat idx) ++ b16 (N.of_nat (pl + List.length p))) (p ++ [CName n])
with cshapes : list aexpr -> nat -> nat -> list N -> list const -> Prop :=
| S_nil pc pl : cshapes [] pc pl [] []
| S_cons x r pc pl f1 p1 f2 p2 :
    cshape x pc pl f1 p1 -> cshapes r (pc + List.length f1) (pl + List.length p1) f2 p2 ->
    cshapes (x :: r) pc pl (f1 ++ f2) (p1 ++ p2)
with bshape : aexpr + bool -> nat -> nat -> list N -> list const -> Prop :=
| B_expr e pc pl f p : cshape e pc pl f p -> bshape (inl e) pc pl f p
| B_bool b pc pl : bshape (inr b) pc pl (op_byte OP_CONST :: b16 (N.of_nat pl)) [CVal (VBool b)]
with ashape : fsig -> list aexpr -> nat -> nat -> list N -> list const -> Prop :=
| A_strict sg args pc pl f p : s_lazy sg = false -> cshapes args pc pl f p -> ashape sg args pc pl f p
| A_lazy sg args pc pl f p : s_lazy sg = true -> tshapes sg 0 args pc pl f p -> ashape sg args pc pl f p
with tshapes : fsig -> nat -> list aexpr -> nat -> nat -> list N -> list const -> Prop :=
| T_nil sg i pc pl : tshapes sg i [] pc pl [] []
| T_cons sg i x r pc pl fx px f2 p2 :
    cshape x 0 pl fx px -> tshapes sg (S i) r (pc + 3) (pl + List.length px + 1) f2 p2 ->
    tshapes sg i (x :: r) pc pl (op_byte OP_CONST :: b16 (N.of_nat (pl + List.length px)) ++ f2)
            (px ++ CThunk (fx ++ [op_byte OP_RETURN]) (thunk_ret sg i) :: p2).

Scheme cshape_mut := Minimality for cshape Sort Prop
  with cshapes_mut := Minimality for cshapes Sort Prop
  with bshape_mut := Minimality for bshape Sort Prop
  with ashape_mut := Minimality for ashape Sort Prop
  with tshapes_mut := Minimality for tshapes Sort Prop.
Combined Scheme shape_mutind from cshape_mut, cshapes_mut, bshape_mut, ashape_mut, tshapes_mut.

Definition shape_prop (a : aexpr) : Prop :=
  forall st st' pc pl, st_at st pc pl -> cmp a st = COk st' -> exists f p, ext st st' f p /\ cshape a pc pl f p.

Lemma cmap_flat : forall kvs st, cmap ops orc fe kvs st = clist ops orc fe (flatten kvs) st.
Proof.
  induction kvs as [|[k v] r IH]; intros st; [reflexivity|].
  cbn [cmap flatten flat_map fst snd app clist]. fold (flatten r).
  destruct (cmp k st) as [s1| |]; try reflexivity. cbn [cbind].
  destruct (cmp v s1) as [s2| |]; try reflexivity. cbn [cbind]. apply IH.
Qed.

Lemma cobj_map : forall fs st, cobj ops orc fe fs st = clist ops orc fe (map snd fs) st.
Proof.
  induction fs as [|[n v] r IH]; intros st; [reflexivity|].
  cbn [cobj map snd clist]. destruct (cmp v st) as [s1| |]; try reflexivity. cbn [cbind]. apply IH.
Qed.

Lemma Forall_flatten (P : aexpr -> Prop) kvs : Forall (fun kv => P (fst kv) /\ P (snd kv)) kvs -> Forall P (flatten kvs).
Proof. induction 1 as [|kv r [Hk Hv] _ IH]; cbn; auto. Qed.

Lemma clist_shape es : Forall shape_prop es -> forall st st' pc pl, st_at st pc pl -> clist ops orc fe es st = COk st' ->
  exists f p, ext st st' f p /\ cshapes es pc pl f p.
Proof.
  induction 1 as [|x r Hx Hr IH]; intros st st' pc pl W H; cbn [clist] in H.
  - injection H as <-. exists [], []. split; [apply ext_refl|constructor].
  - apply cbind_ok in H as (st1 & C1 & H). destruct (Hx _ _ _ _ W C1) as (f1 & p1 & E1 & S1).
    destruct (IH _ _ _ _ (ext_at W E1) H) as (f2 & p2 & E2 & S2).
    exists (f1 ++ f2), (p1 ++ p2). split; [exact (ext_trans E1 E2)|constructor; assumption].
Qed.

Lemma cbranch_shape br : on_branch shape_prop br -> forall st st' pc pl, st_at st pc pl ->
  cbranch ops orc fe br st = COk st' -> exists f p, ext st st' f p /\ bshape br pc pl f p.
Proof.
  intros Hb st st' pc pl W H. destruct br as [e|b]; cbn [cbranch on_branch] in *.
  - destruct (Hb _ _ _ _ W H) as (f & p & E & S). exists f, p. split; [exact E|constructor; exact S].
  - eexists _, _. split; [exact (const_instr_ext W H)|constructor].
Qed.

Lemma ccond_shape x t e st st' pc pl : st_at st pc pl -> shape_prop x -> on_branch shape_prop t -> on_branch shape_prop e ->
  ccond ops orc fe x t e st = COk st' ->
  exists fx px ft pt fe' pe,
    cshape x pc pl fx px /\
    bshape t (pc + List.length fx + 3) (pl + List.length px) ft pt /\
    bshape e (pc + List.length fx + 3 + List.length ft + 3) (pl + List.length px + List.length pt) fe' pe /\
    ext st st' (cond_code pc fx ft fe') (px ++ pt ++ pe).
Proof.
  intros W Hx Ht He H. unfold ccond in H.
  apply cbind_ok in H as (st1 & C1 & H). destruct (Hx _ _ _ _ W C1) as (fx & px & E1 & S1).
  pose proof (ext_trans_code E1 (ext_emit_op OP_IF_TRUE st1)) as E2.
  apply cbind_ok in H as (st3 & C3 & H). pose proof (ext_trans_code E2 (emit16_ext C3)) as E3.
  assert (W3 : st_at st3 (pc + List.length fx + 3) (pl + List.length px)) by (apply (at_eq (ext_at W E3)); lens; lia).
  apply cbind_ok in H as (st4 & C4 & H). destruct (cbranch_shape t Ht _ _ _ _ W3 C4) as (ft & pt & E4 & S4).
  pose proof (ext_trans E3 (ext_trans_code E4 (ext_emit_op OP_JUMP st4))) as E5.
  apply cbind_ok in H as (st6 & C6 & H). pose proof (ext_trans_code E5 (emit16_ext C6)) as E6.
  assert (W6 : st_at st6 (pc + List.length fx + 3 + List.length ft + 3) (pl + List.length px + List.length pt))
    by (apply (at_eq (ext_at W E6)); lens; lia).
  apply cbind_ok in H as (st7 & C7 & H). destruct (cbranch_shape e He _ _ _ _ W6 C7) as (fe' & pe & E7 & S7).
  pose proof (ext_trans E6 E7) as E.
  assert (L7 : cs_clen st7 = N.of_nat (pc + List.length fx + 3 + List.length ft + 3 + List.length fe'))
    by (rewrite (at_clen (ext_at W E)); f_equal; lens; lia).
  exists fx, px, ft, pt, fe', pe. repeat (split; [assumption|]).
  (* the operand of IF_TRUE follows [fx ++ [IF_TRUE]], that of JUMP what precedes the second branch *)
  apply cbind_ok in H as (st8 & C8 & H). rewrite <- !app_assoc in E. rewrite (app_assoc fx) in E.
  pose proof (patch16_ext W E (at_clen (ext_at W E2)) C8) as E8.
  rewrite (app_assoc ft), (app_assoc (b16 _)), (app_assoc (fx ++ _)) in E8.
  assert (O2 : cs_clen (emit_op OP_JUMP st4) =
               N.of_nat (pc + List.length ((fx ++ [op_byte OP_IF_TRUE]) ++ b16 (cs_clen st6) ++ ft ++ [op_byte OP_JUMP])))
    by (rewrite (at_clen (ext_at W E5)); f_equal; lens; lia).
  pose proof (patch16_ext W E8 O2 H) as E9. rewrite (at_clen W6), L7, <- !app_assoc in E9. exact E9.
Qed.

Lemma at_empty {st pc pl} : st_at st pc pl -> st_at (cs_empty (cs_rpool st) (cs_plen st)) 0 pl.
Proof. intros ([_ W] & _ & L). repeat split; assumption. Qed.

Lemma cargs_shape sg args : Forall shape_prop args -> forall i st st' pc pl, st_at st pc pl ->
  cargs ops orc fe sg args i st = COk st' ->
  exists f p, ext st st' f p /\ if s_lazy sg then tshapes sg i args pc pl f p else cshapes args pc pl f p.
Proof.
  induction 1 as [|x r Hx Hr IH]; intros i st st' pc pl W H; cbn [cargs] in H.
  - injection H as <-. exists [], []. split; [apply ext_refl|]. destruct (s_lazy sg); constructor.
  - destruct (s_lazy sg) eqn:Hl.
    + apply cbind_ok in H as (sub & C1 & H). apply cbind_ok in H as (st2 & C2 & H).
      destruct (Hx _ _ _ _ (at_empty W) C1) as (fx & px & Ex & Sx).
      assert (E1 : ext st (mkCS (cs_rcode st) (cs_clen st) (cs_rpool sub) (cs_plen sub)) [] px).
      { destruct Ex as [_ [_ [B3 B4]]]. cbn [cs_empty cs_rpool cs_plen] in B3, B4.
        unfold ext. cbn [cs_rcode cs_clen cs_rpool cs_plen rev List.length app]. repeat split; try assumption. lia. }
      pose proof (ext_trans E1 (const_instr_ext (ext_at W E1) C2)) as E12.
      change (cs_rcode (emit_op OP_RETURN sub)) with (op_byte OP_RETURN :: cs_rcode sub) in E12.
      cbn [rev app] in E12. rewrite (ext_code Ex) in E12. cbn [cs_empty cs_rcode rev app] in E12.
      assert (W2 : st_at st2 (pc + 3) (pl + List.length px + 1)) by (apply (at_eq (ext_at W E12)); lens; lia).
      destruct (IH (S i) _ _ _ _ W2 H) as (f2 & p2 & E2 & S2).
      pose proof (ext_trans E12 E2) as E. rewrite <- app_assoc in E.
      eexists _, _. split; [exact E|]. cbn [app]. constructor; assumption.
    + apply cbind_ok in H as (st1 & C1 & H). destruct (Hx _ _ _ _ W C1) as (f1 & p1 & E1 & S1).
      destruct (IH (S i) _ _ _ _ (ext_at W E1) H) as (f2 & p2 & E2 & S2).
      exists (f1 ++ f2), (p1 ++ p2). split; [exact (ext_trans E1 E2)|constructor; assumption].
Qed.

Theorem compile_shape : forall a st st' pc pl, st_at st pc pl -> cmp a st = COk st' ->
  exists f p, ext st st' f p /\ cshape a pc pl f p.
Proof.
  induction a as [v|t n|t|b|t es IHes|t kvs IHkvs|t fs IHfs|c n|c key idx ft callee args IHf IHargs|c vt v i IHv IHi|c ot idx o n IHo]
    using aexpr_ind'; intros st st' pc pl W H; rewrite compile_eq in H.
  1-4: (eexists _, _; split; [exact (const_instr_ext W H)|apply S_leaf; reflexivity]).
  - apply cbind_ok in H as (st1 & C1 & H). apply cbind_ok in H as (st2 & C2 & H).
    destruct (clist_shape es IHes _ _ _ _ W C1) as (f & p & E1 & S1).
    eexists _, _. split; [exact (ext_trans E1 (ext_trans_code (const_instr_ext (ext_at W E1) C2) (emit16_ext H)))|].
    apply (S_list t es _ _ f p). exact S1.
  - apply cbind_ok in H as (st1 & C1 & H). apply cbind_ok in H as (st2 & C2 & H). rewrite cmap_flat in C1.
    destruct (clist_shape _ (Forall_flatten _ _ IHkvs) _ _ _ _ W C1) as (f & p & E1 & S1).
    eexists _, _. split; [exact (ext_trans E1 (ext_trans_code (const_instr_ext (ext_at W E1) C2) (emit16_ext H)))|].
    apply (S_map t kvs _ _ f p). exact S1.
  - apply cbind_ok in H as (st1 & C1 & H). rewrite cobj_map in C1.
    destruct (clist_shape _ (proj2 (Forall_map _ _ _) IHfs) _ _ _ _ W C1) as (f & p & E1 & S1).
    eexists _, _. split; [exact (ext_trans E1 (const_instr_ext (ext_at W E1) H))|]. apply (S_obj t fs _ _ f p). exact S1.
  - eexists _, _. split; [exact (const_instr_ext W H)|constructor].
  - destruct (String.eqb key "") eqn:Hk.
    + apply cbind_ok in H as (st1 & C1 & H). apply cbind_ok in H as (st2 & C2 & H).
      destruct (IHf _ _ _ _ W C1) as (f1 & p1 & E1 & S1).
      destruct (clist_shape args IHargs _ _ _ _ (ext_at W E1) C2) as (f2 & p2 & E2 & S2).
      pose proof (ext_trans_code (ext_emit_op OP_DYNAMIC_CALL st2) (emit8_ext H)) as E3.
      eexists _, _. split; [exact (ext_trans E1 (ext_trans_code E2 E3))|].
      apply (S_dynamic c key idx ft callee args _ _ f1 p1 f2 p2); assumption.
    + destruct (lookup_fn fe key idx) as [sg|] eqn:Hlk; [|discriminate H].
      destruct (intrinsic_cbn sg) as [b|] eqn:Hcbn.
      * assert (Hcond : forall x t e, cond_parts b args = Some (x, t, e) -> ccond ops orc fe x t e st = COk st' ->
                  exists f p, ext st st' f p /\ cshape (ACall c key idx ft callee args) pc pl f p).
        { intros x t e Hcp Hcc. destruct (cond_parts_Forall _ _ _ _ _ _ IHargs Hcp) as (Px & Pt & Pe).
          destruct (ccond_shape _ _ _ _ _ _ _ W Px Pt Pe Hcc) as (fx & px & ft' & pt & fe' & pe & S1 & S2 & S3 & E).
          eexists _, _. split; [exact E|]. eapply S_cond; eassumption. }
        destruct b; try discriminate H; destruct args as [|a1 [|a2 [|a3 [|a4 r]]]]; try discriminate H;
          try (eapply Hcond; [reflexivity|exact H]).
        apply cbind_ok in H as (st1 & C1 & H). injection H as <-. inversion IHargs as [|? ? P1 _]; subst.
        destruct (P1 _ _ _ _ W C1) as (f & p & E1 & S1).
        eexists _, _. split; [exact (ext_trans_code E1 (ext_emit_op OP_LOGICAL_NOT st1))|].
        eapply S_not; eassumption.
      * apply cbind_ok in H as (st1 & C1 & H).
        destruct (cargs_shape sg args IHargs _ _ _ _ _ W C1) as (f & p & E1 & S1).
        assert (A1 : ashape sg args pc pl f p).
        { destruct (s_lazy sg) eqn:Hl; [apply A_lazy|apply A_strict]; assumption. }
        destruct (intrinsic_cbv sg) as [o|] eqn:Hcbv.
        -- injection H as <-. eexists _, _. split; [exact (ext_trans_code E1 (ext_emit_op o st1))|].
           eapply S_intrinsic; eassumption.
        -- cbv zeta in H. apply cbind_ok in H as (st2 & C2 & H).
           eexists _, _. split; [exact (ext_trans E1 (ext_trans_code (const_instr_ext (ext_at W E1) C2) (emit8_ext H)))|].
           eapply S_call; eassumption.
  - apply cbind_ok in H as (st1 & C1 & H). apply cbind_ok in H as (st2 & C2 & H).
    destruct (IHv _ _ _ _ W C1) as (f1 & p1 & E1 & S1). destruct (IHi _ _ _ _ (ext_at W E1) C2) as (f2 & p2 & E2 & S2).
    assert (Ho : exists o, sub_op vt = Some o /\ st' = emit_op o st2).
    { unfold sub_op. destruct (ty_is_list vt); [|destruct (ty_is_map vt); [|discriminate H]]; inversion H; eauto. }
    destruct Ho as (o & Ho & ->).
    eexists _, _. split; [exact (ext_trans E1 (ext_trans_code E2 (ext_emit_op o st2)))|].
    apply (S_sub c vt v i o _ _ f1 p1 f2 p2); assumption.
  - apply cbind_ok in H as (st1 & C1 & H). apply cbind_ok in H as (st2 & C2 & H).
    destruct (IHo _ _ _ _ W C1) as (f & p & E1 & S1).
    pose proof (ext_trans_code (ext_emit_op OP_OBJ_LOAD st1) (emit16_ext C2)) as E2.
    pose proof (emit_const_ext (at_eq (ext_at (ext_at W E1) E2) eq_refl (Nat.add_0_r _)) H) as E3.
    eexists _, _. split; [exact (ext_trans E1 (ext_trans E2 E3))|].
    apply (S_member c ot idx o n _ _ f p). exact S1.
Qed.

Lemma compile_main_shape a code pool : compile_main ops orc fe a = COk (code, pool) ->
  exists f, cshape a 0 0 f pool /\ code = f ++ [op_byte OP_RETURN].
Proof.
  intros H. unfold compile_main in H. apply cbind_ok in H as (st & C & H). injection H as <- <-.
  assert (W0 : st_at (cs_empty [] 0) 0 0) by (repeat split).
  destruct (compile_shape a _ _ _ _ W0 C) as (f & p & E & S). exists f.
  change (cs_rcode (emit_op OP_RETURN st)) with (op_byte OP_RETURN :: cs_rcode st).
  change (cs_rpool (emit_op OP_RETURN st)) with (cs_rpool st). cbn [rev].
  rewrite (ext_code E), (ext_pool E). split; [exact S|reflexivity].
Qed.
End Shape.

(* The tables of intrinsic opcodes are regenerated from the Go source, so what is needed of their rows is checked by
   evaluation. *)
Lemma cbv_rows_agree :
  forallb (fun row => let '(name, ps, opn) := row in
             match find (fun o => String.eqb (op_name o) opn) all_ops, classify name ps with
             | Some o, Some b => match intrinsic_sem o with
                                 | Some (b', k) => bfun_beq b b' && Nat.eqb k (List.length ps)
                                 | None => false end
             | _, _ => false
             end) intrinsics_cbv = true.
Proof. vm_compute. reflexivity. Qed.

Lemma cbn_rows_classified :
  forallb (fun row => match classify (fst row) (snd row) with
                      | Some BIf | Some BAnd | Some BOr | Some BNot => true
                      | _ => false end) intrinsics_cbn = true.
Proof. vm_compute. reflexivity. Qed.

Lemma cbv_rows_strict :
  forallb (fun x => forallb (fun y => let '(n, ps, r, lz) := y in
                                      if String.eqb (fst (fst x)) n && String.eqb (shapes (snd (fst x))) (shapes ps)
                                      then Bool.eqb lz false else true) builtin_sigs) intrinsics_cbv = true.
Proof. vm_compute. reflexivity. Qed.

Lemma cbn_rows_lazy :
  forallb (fun x => forallb (fun y => let '(n, ps, r, lz) := y in
                                      if String.eqb (fst x) n && String.eqb (shapes (snd x)) (shapes ps)
                                      then Bool.eqb lz (match classify (fst x) (snd x) with
                                                        | Some b => is_lazy_builtin b | None => false end)
                                      else true) builtin_sigs) intrinsics_cbn = true.
Proof. vm_compute. reflexivity. Qed.

Lemma ty_eqb_shape : forall x y, ty_eqb x y = true -> shape x = shape y.
Proof. destruct x, y; intros H; try reflexivity; discriminate H. Qed.

Lemma funty_shapes : forall n ps r n' ps' r', ty_eqb (TFun n ps r) (TFun n' ps' r') = true ->
  shapes ps = shapes ps' /\ List.length ps = List.length ps'.
Proof.
  intros n ps r n' ps' r' H. rewrite C17Proofs.ty_eqb_fun in H. apply andb_true_iff in H as [H _].
  apply C17Proofs.eqb_list_Forall2 in H. split; [|exact (ListFacts.Forall2_len _ _ _ H)].
  induction H as [|a b l l' Hab _ IH]; [reflexivity|].
  change (shape a ++ shapes l = shape b ++ shapes l')%string. rewrite (ty_eqb_shape _ _ Hab), IH. reflexivity.
Qed.

Lemma same_fn_inv : forall name ps sg, same_fn name ps sg = true ->
  name = s_name sg /\ shapes ps = shapes (s_params sg) /\ List.length ps = List.length (s_params sg).
Proof.
  intros name ps sg H. unfold same_fn in H. apply andb_true_iff in H. destruct H as [H1 H2].
  apply String.eqb_eq in H1. destruct (funty_shapes _ _ _ _ _ _ H2) as [Hs Hl]. auto.
Qed.

Lemma classify_shapes : forall n ps ps', shapes ps = shapes ps' -> classify n ps = classify n ps'.
Proof. intros n ps ps' H. unfold classify. rewrite H. reflexivity. Qed.

Lemma builtin_row : forall sg, sig_is_builtin sg = true ->
  exists n ps r lz, In (n, ps, r, lz) builtin_sigs /\ n = s_name sg /\ lz = s_lazy sg /\ shapes ps = shapes (s_params sg).
Proof.
  intros sg H. unfold sig_is_builtin in H. apply existsb_exists in H. destruct H as [[[[n ps] r] lz] [Hin H]].
  apply andb_true_iff in H. destruct H as [H H3]. apply andb_true_iff in H. destruct H as [H1 H2].
  apply String.eqb_eq in H1. apply Bool.eqb_prop in H2. destruct (funty_shapes _ _ _ _ _ _ H3) as [Hs _].
  exists n, ps, r, lz. auto.
Qed.

Lemma row_lazy {R} (nm : R -> string) (pr : R -> list ty) (flag : R -> bool) (tbl : list R) :
  forallb (fun x => forallb (fun y => let '(n, ps, r, lz) := y in
                                      if String.eqb (nm x) n && String.eqb (shapes (pr x)) (shapes ps)
                                      then Bool.eqb lz (flag x) else true) builtin_sigs) tbl = true ->
  forall x sg, In x tbl -> same_fn (nm x) (pr x) sg = true -> sig_is_builtin sg = true -> s_lazy sg = flag x.
Proof.
  intros Hc x sg Hin Hs Hb. destruct (same_fn_inv _ _ _ Hs) as [Hn [Hsh _]].
  destruct (builtin_row sg Hb) as (n' & ps' & r' & lz & Hin' & Hn' & Hlz & Hsh').
  rewrite forallb_forall in Hc. specialize (Hc _ Hin). rewrite forallb_forall in Hc. specialize (Hc _ Hin').
  cbv beta iota in Hc. rewrite Hn, Hn', String.eqb_refl, Hsh, Hsh', String.eqb_refl in Hc. cbn [andb] in Hc.
  apply Bool.eqb_prop in Hc. rewrite <- Hlz. exact Hc.
Qed.

Lemma cbv_info : forall sg o, intrinsic_cbv sg = Some o ->
  sig_is_builtin sg = true /\ s_lazy sg = false /\
  exists bf, classify (s_name sg) (s_params sg) = Some bf /\ intrinsic_sem o = Some (bf, len (s_params sg)).
Proof.
  intros sg o H. unfold intrinsic_cbv in H. destruct (sig_is_builtin sg) eqn:Hb; [|discriminate].
  destruct (find (fun x => same_fn (fst (fst x)) (snd (fst x)) sg) intrinsics_cbv) as [[[name ps] opn]|] eqn:Hf;
    [|discriminate].
  apply find_some in Hf. destruct Hf as [Hin Hs]. cbn [fst snd] in H, Hs.
  destruct (same_fn_inv _ _ _ Hs) as [Hn [Hsh Hl]].
  split; [reflexivity|]. split.
  - exact (row_lazy (fun x => fst (fst x)) (fun x => snd (fst x)) (fun _ => false) _ cbv_rows_strict _ sg Hin Hs Hb).
  - pose proof cbv_rows_agree as Ha. rewrite forallb_forall in Ha. specialize (Ha _ Hin). cbn beta iota in Ha.
    rewrite H in Ha. destruct (classify name ps) as [b|] eqn:Hc; [|discriminate].
    destruct (intrinsic_sem o) as [[b' k]|]; [|discriminate].
    apply andb_true_iff in Ha. destruct Ha as [Hb1 Hk]. apply internal_bfun_dec_bl in Hb1. apply Nat.eqb_eq in Hk.
    subst b' k. exists b. split.
    + rewrite <- Hn, <- (classify_shapes name ps _ Hsh). exact Hc.
    + rewrite Hl. reflexivity.
Qed.

Lemma cbn_info : forall sg b, intrinsic_cbn sg = Some b ->
  sig_is_builtin sg = true /\ classify (s_name sg) (s_params sg) = Some b /\ s_lazy sg = is_lazy_builtin b.
Proof.
  intros sg b H. unfold intrinsic_cbn in H.
  destruct (sig_is_builtin sg) eqn:Hb; [|discriminate]. cbn [andb] in H.
  destruct (existsb (fun x => same_fn (fst x) (snd x) sg) intrinsics_cbn) eqn:He; [|discriminate].
  apply existsb_exists in He. destruct He as [[name ps] [Hin Hs]].
  destruct (same_fn_inv _ _ _ Hs) as [Hn [Hsh _]]. cbn [fst snd] in Hn, Hsh.
  split; [reflexivity|]. split; [exact H|].
  rewrite (row_lazy fst snd _ _ cbn_rows_lazy _ sg Hin Hs Hb). cbn [fst snd].
  rewrite Hn, (classify_shapes _ ps _ Hsh), H. reflexivity.
Qed.
