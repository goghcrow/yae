(* Proofs for Props/C20.v: the SQL WHERE printer keeps the boolean structure of the criteria and quotes literals safely. *)
From Coq Require Import List String Ascii Bool Arith NArith ZArith Lia.
From Yae Require Import Base.Sexp Model.Ty Model.Num Model.Lexer Model.Literal Model.Val Model.Render Model.Eval
  Model.Sql Model.SqlSpec Proofs.ListFacts.
Import ListNotations.
Local Open Scope nat_scope.
Local Open Scope list_scope.

Lemma string_operand : forall ops rho s, operand_text ops rho (PStr s) = Some (quote s).
Proof. reflexivity. Qed.

Lemma scalars : forall ops rho b sec n,
  operand_text ops rho (PBool b) = Some (if b then bytes_of_string "1" else bytes_of_string "0") /\
  operand_text ops rho (PTime sec) = Some (bytes_of_string "from_unixtime(" ++ fmt_Z sec ++ bytes_of_string ")") /\
  operand_text ops rho (PNum n) = Some (fmt_num ops n).
Proof. intros. repeat split. Qed.

Lemma names : forall ops rho n,
  (forall v, assoc n rho = Some v -> name_text ops rho n = fmt_val ops v) /\
  (assoc n rho = None -> name_text ops rho n = Some ([96%N] ++ bytes_of_string n ++ [96%N])).
Proof.
  intros ops rho n. unfold name_text. split.
  - intros v H. rewrite H. reflexivity.
  - intros H. rewrite H. reflexivity.
Qed.

(* [TAnd] is the default of [hd] and [last] because it is no parenthesis; the list is non-empty, so it is never taken *)
Definition ends_ok (ts : list stok) : Prop :=
  ts <> [] /\ is_rp (hd TAnd ts) = false /\ is_lp (last ts TAnd) = false.

Lemma ends_ok_paren t : ends_ok ([TLp] ++ t ++ [TRp]).
Proof.
  split; [discriminate|]. split; [reflexivity|].
  rewrite app_assoc. rewrite last_app_ne by discriminate. reflexivity.
Qed.

Lemma ends_ok_bin xs m ys : ends_ok xs -> ends_ok ys -> ends_ok (xs ++ [m] ++ ys).
Proof.
  intros (Hx & Hxh & _) (Hy & _ & Hyl). split; [|split].
  - destruct xs; [congruence|discriminate].
  - destruct xs; [congruence|exact Hxh].
  - rewrite app_assoc. rewrite last_app_ne by exact Hy. exact Hyl.
Qed.

Lemma ends_ok_not ys : ends_ok ys -> ends_ok ([TNot] ++ ys).
Proof.
  intros (Hy & _ & Hyl). split; [discriminate|]. split; [reflexivity|].
  rewrite last_app_ne by exact Hy. exact Hyl.
Qed.

Lemma ends_ok_toks c : forall outer, ends_ok (sql_toks c outer).
Proof.
  induction c as [k|a IHa b IHb|a IHa b IHb|a IHa]; intros outer; cbn [sql_toks].
  - split; [discriminate|]. split; reflexivity.
  - destruct (N.ltb P_AND outer); [apply ends_ok_paren|apply ends_ok_bin; auto].
  - destruct (N.ltb P_OR outer); [apply ends_ok_paren|apply ends_ok_bin; auto].
  - destruct (N.ltb P_NOT outer); [apply ends_ok_paren|apply ends_ok_not; auto].
Qed.

Section Tokens.
  Variable ops : numops.
  Variable rho : venv.

  Lemma render_cons t u r :
    render_toks ops rho (t :: u :: r) =
    do a <- tok_text ops rho t; do b <- render_toks ops rho (u :: r);
    Some (if is_lp t || is_rp u then a ++ b else a ++ [32%N] ++ b).
  Proof. reflexivity. Qed.

  Lemma render_one t : render_toks ops rho [t] = tok_text ops rho t.
  Proof. reflexivity. Qed.

  Lemma render_app xs : forall ys, xs <> [] -> ys <> [] ->
    render_toks ops rho (xs ++ ys) =
    do a <- render_toks ops rho xs; do b <- render_toks ops rho ys;
    Some (if is_lp (last xs TAnd) || is_rp (hd TAnd ys) then a ++ b else a ++ [32%N] ++ b).
  Proof.
    induction xs as [|t xs IH]; intros ys Hx Hy; [congruence|].
    destruct xs as [|t' xs].
    - destruct ys as [|u ys]; [congruence|].
      cbn [app]. rewrite render_cons, render_one. reflexivity.
    - change ((t :: t' :: xs) ++ ys) with (t :: t' :: (xs ++ ys)).
      rewrite render_cons.
      change (t' :: xs ++ ys) with ((t' :: xs) ++ ys).
      rewrite IH by (congruence || assumption).
      rewrite render_cons.
      change (last (t :: t' :: xs) TAnd) with (last (t' :: xs) TAnd).
      destruct (tok_text ops rho t) as [a|]; [|reflexivity]. cbn [bind].
      destruct (render_toks ops rho (t' :: xs)) as [b|]; [|reflexivity]. cbn [bind].
      destruct (render_toks ops rho ys) as [c|]; [|reflexivity]. cbn [bind].
      f_equal.
      destruct (is_lp t || is_rp t'), (is_lp (last (t' :: xs) TAnd) || is_rp (hd TAnd ys));
        rewrite <- ?app_assoc; cbn [app]; rewrite <- ?app_assoc; reflexivity.
  Qed.

  (* the printer's [paren], on tokens *)
  Lemma render_wrap (p : bool) t : ends_ok t ->
    render_toks ops rho (if p then [TLp] ++ t ++ [TRp] else t) =
    do x <- render_toks ops rho t; Some (if p then [40%N] ++ x ++ [41%N] else x).
  Proof.
    intros (Ht & _). destruct p; [|destruct (render_toks ops rho t); reflexivity].
    rewrite render_app; [|discriminate|intros E; apply app_eq_nil in E; destruct E; discriminate].
    rewrite render_app; [|assumption|discriminate].
    cbn [last hd is_lp is_rp orb]. rewrite !render_one. cbn [tok_text bind].
    rewrite orb_true_r.
    destruct (render_toks ops rho t) as [x|]; reflexivity.
  Qed.

  Lemma render_bin xs m ys w : ends_ok xs -> ends_ok ys -> tok_text ops rho m = Some w ->
    is_lp m = false -> is_rp m = false ->
    render_toks ops rho (xs ++ [m] ++ ys) =
    do x <- render_toks ops rho xs; do y <- render_toks ops rho ys; Some (x ++ ([32%N] ++ w ++ [32%N]) ++ y).
  Proof.
    intros (Hx & _ & Hxl) (Hy & Hyh & _) Hm Hml Hmr.
    rewrite render_app by (try assumption; discriminate).
    rewrite render_app by (try assumption; discriminate).
    cbn [last hd app]. rewrite Hxl, Hyh, Hml, Hmr, render_one, Hm. cbn [orb bind].
    destruct (render_toks ops rho xs) as [x|]; [|reflexivity]. cbn [bind].
    destruct (render_toks ops rho ys) as [y|]; [|reflexivity]. cbn [bind].
    rewrite <- !app_assoc. reflexivity.
  Qed.

  Lemma render_not ys : ends_ok ys ->
    render_toks ops rho ([TNot] ++ ys) = do y <- render_toks ops rho ys; Some (bytes_of_string "NOT " ++ y).
  Proof.
    intros (Hy & Hyh & _).
    rewrite render_app by (try assumption; discriminate).
    cbn [last hd is_lp]. rewrite Hyh, render_one. cbn [tok_text orb bind].
    destruct (render_toks ops rho ys) as [y|]; reflexivity.
  Qed.

  (* AND and OR: the printer's [x ++ " w " ++ y] under [paren] is what the tokens around [m] render to *)
  Lemma text_bin (p : bool) a b own m w : tok_text ops rho m = Some w -> is_lp m = false -> is_rp m = false ->
    (do x <- render_toks ops rho (sql_toks a own); do y <- render_toks ops rho (sql_toks b own);
     Some (if p then [40%N] ++ (x ++ ([32%N] ++ w ++ [32%N]) ++ y) ++ [41%N] else x ++ ([32%N] ++ w ++ [32%N]) ++ y)) =
    render_toks ops rho (if p then [TLp] ++ (sql_toks a own ++ [m] ++ sql_toks b own) ++ [TRp]
                         else sql_toks a own ++ [m] ++ sql_toks b own).
  Proof.
    intros Hm Hl Hr. rewrite render_wrap by (apply ends_ok_bin; apply ends_ok_toks).
    rewrite (render_bin _ _ _ w) by (assumption || apply ends_ok_toks).
    destruct (render_toks ops rho (sql_toks a own)); [|reflexivity].
    destruct (render_toks ops rho (sql_toks b own)); reflexivity.
  Qed.

  Lemma text_is_tokens : forall c outer,
    sql_text ops rho c outer = render_toks ops rho (sql_toks c outer).
  Proof.
    induction c as [k|a IHa b IHb|a IHa b IHb|a IHa]; intros outer; cbn [sql_text sql_toks].
    - reflexivity.
    - rewrite IHa, IHb. exact (text_bin _ a b P_AND TAnd (bytes_of_string "AND") eq_refl eq_refl eq_refl).
    - rewrite IHa, IHb. exact (text_bin _ a b P_OR TOr (bytes_of_string "OR") eq_refl eq_refl eq_refl).
    - rewrite IHa, render_wrap, render_not by (try apply ends_ok_not; apply ends_ok_toks).
      destruct (render_toks ops rho (sql_toks a P_NOT)); reflexivity.
  Qed.
End Tokens.

Section QuoteSafe.
  Local Open Scope N_scope.

  (* [is_print] is a search in a long table of ranges, which nothing here needs to look into *)
  Local Arguments is_print : simpl never.
  Local Opaque is_print.

  Definition plain_byte (b : N) : Prop := b <> 34 /\ b <> 92.
  Definition skips (enc : list N) : Prop :=
    forall tail pos, lit_end (enc ++ tail) pos = lit_end tail (List.length enc + pos)%nat.

  Lemma skips_plain enc : Forall plain_byte enc -> skips enc.
  Proof.
    induction 1 as [|b enc (H1 & H2) _ IH]; intros tail pos; [reflexivity|].
    cbn [app lit_end List.length].
    destruct (N.eqb_spec b 92); [congruence|]. destruct (N.eqb_spec b 34); [congruence|].
    rewrite IH. f_equal. lia.
  Qed.

  Lemma skips_esc x enc : Forall plain_byte enc -> skips (92 :: x :: enc).
  Proof.
    intros H tail pos. cbn [app lit_end List.length]. cbn [N.eqb Pos.eqb].
    rewrite (skips_plain _ H). f_equal. lia.
  Qed.

  Lemma plain_hexd n : plain_byte (hexd n).
  Proof. unfold plain_byte, hexd. destruct (N.ltb_spec n 10); lia. Qed.

  Lemma plain_hex2 n : Forall plain_byte (hex2 n).
  Proof. unfold hex2. repeat constructor; apply plain_hexd. Qed.

  Lemma plain_hex4 n : Forall plain_byte (hex4 n).
  Proof. unfold hex4. apply Forall_app. split; apply plain_hex2. Qed.

  Lemma plain_hex8 n : Forall plain_byte (hex8 n).
  Proof. unfold hex8. apply Forall_app. split; apply plain_hex2 || apply plain_hex4. Qed.

  (* lead and continuation bytes of a multi-byte encoding *)
  Lemma plain_high k x : 128 <= k -> plain_byte (k + x).
  Proof. unfold plain_byte. lia. Qed.

  Lemma plain_utf8 r : r <> 34 -> r <> 92 -> Forall plain_byte (utf8_encode r).
  Proof.
    intros H1 H2. unfold utf8_encode.
    set (c := if _ : bool then 65533 else r).
    assert (Hc : plain_byte c) by (subst c; destruct (_ || _); unfold plain_byte; [lia|auto]).
    cbv zeta. destruct (N.ltb c 128); [|destruct (N.ltb c 2048); [|destruct (N.ltb c 65536)]];
      repeat (apply Forall_cons || apply Forall_nil); (exact Hc || (apply plain_high; lia)).
  Qed.

  Lemma skips_escape_rune r : skips (escape_rune r).
  Proof.
    unfold escape_rune.
    destruct (N.eqb_spec r 34) as [->|H34]; [apply skips_esc; constructor|].
    destruct (N.eqb_spec r 92) as [->|H92]; [apply skips_esc; constructor|].
    cbn [orb].
    destruct (is_print r); [apply skips_plain, plain_utf8; assumption|].
    (* every branch left is a backslash, a letter and hexadecimal digits: none after the seven one-letter escapes, two,
       four or eight after x, u, U *)
    repeat match goal with
           | |- skips (if ?c then _ else _) => destruct c
           end;
      apply skips_esc; first [apply Forall_nil | apply plain_hex2 | apply plain_hex4 | apply plain_hex8].
  Qed.

  Definition stepq (x : N * nat * N) : list N :=
    let '(r, w, b0) := x in if Nat.eqb w 1 && N.eqb r 65533 then [92; 120] ++ hex2 b0 else escape_rune r.

  Lemma skips_stepq x : skips (stepq x).
  Proof.
    destruct x as [[r w] b0]. unfold stepq.
    destruct (Nat.eqb w 1 && N.eqb r 65533).
    - apply (skips_esc 120), plain_hex2.
    - apply skips_escape_rune.
  Qed.

  Lemma skips_flat_map {X} (g : X -> list N) l : (forall x, skips (g x)) -> skips (flat_map g l).
  Proof.
    intros Hg. induction l as [|x l IH]; intros tail pos; [reflexivity|].
    cbn [flat_map]. rewrite <- app_assoc. rewrite Hg, IH. f_equal. rewrite app_length. lia.
  Qed.

  Lemma quote_safe : forall s, exists body,
    quote s = 34%N :: body /\ lit_end body 1 = Some (List.length (quote s)).
  Proof.
    intros s. exists (flat_map stepq (runes_of s) ++ [34]). split; [reflexivity|].
    rewrite (skips_flat_map stepq _ skips_stepq).
    change (quote s) with (34 :: flat_map stepq (runes_of s) ++ [34]).
    cbn [lit_end List.length]. cbn [N.eqb Pos.eqb]. f_equal. rewrite app_length. cbn [List.length]. lia.
  Qed.
End QuoteSafe.

Section Reader.
  Local Open Scope nat_scope.

  (* the local functions of [read_or (S f)], standalone; [inner] stands for the call between parentheses, [read_or f] *)
  Section Loops.
    Variable inner : list stok -> option (crit * list stok).

    Definition r_atom (ts : list stok) : option (crit * list stok) :=
      match ts with
      | TLeaf k :: r => Some (CLeaf k, r)
      | TLp :: r => match inner r with
                    | Some (c, TRp :: r') => Some (c, r')
                    | _ => None
                    end
      | _ => None
      end.

    Fixpoint r_not (n : nat) (ts : list stok) : option (crit * list stok) :=
      match n with
      | O => None
      | S m => match ts with
               | TNot :: r => match r_not m r with Some (c, r') => Some (CNot c, r') | None => None end
               | _ => r_atom ts
               end
      end.

    Fixpoint r_and (n : nat) (acc : crit) (ts : list stok) : option (crit * list stok) :=
      match n with
      | O => None
      | S m => match ts with
               | TAnd :: r => match r_not (S (List.length r)) r with
                              | Some (c, r') => r_and m (CAnd acc c) r'
                              | None => None end
               | _ => Some (acc, ts)
               end
      end.

    Definition and_expr (ts : list stok) : option (crit * list stok) :=
      match r_not (S (List.length ts)) ts with
      | Some (c, r) => r_and (S (List.length r)) c r
      | None => None
      end.

    Fixpoint r_or (n : nat) (acc : crit) (ts : list stok) : option (crit * list stok) :=
      match n with
      | O => None
      | S m => match ts with
               | TOr :: r => match and_expr r with
                             | Some (c, r') => r_or m (COr acc c) r'
                             | None => None end
               | _ => Some (acc, ts)
               end
      end.
  End Loops.

  Fixpoint reader (fuel : nat) (ts : list stok) : option (crit * list stok) :=
    match fuel with
    | O => None
    | S f => match and_expr (reader f) ts with
             | Some (c, r) => r_or (reader f) (S (List.length r)) c r
             | None => None
             end
    end.

  (* Compared as fixpoints, the two bodies are traversed once, the recursive call being a variable on both sides.
     Asking for [read_or (S f) ts] directly unfolds it first, and then each of the many copies of the call between
     parentheses (one per branch of every loop) is compared by comparing the whole body again. *)
  Lemma read_or_reader : read_or = reader.
  Proof. reflexivity. Qed.

  Lemma read_or_S f ts :
    read_or (S f) ts =
    match and_expr (read_or f) ts with Some (c, r) => r_or (read_or f) (S (List.length r)) c r | None => None end.
  Proof. rewrite read_or_reader. reflexivity. Qed.

  Lemma r_not_leaf inner n k r : r_not inner (S n) (TLeaf k :: r) = Some (CLeaf k, r).
  Proof. reflexivity. Qed.
  Lemma r_not_lp inner n r :
    r_not inner (S n) (TLp :: r) = match inner r with Some (c, TRp :: r') => Some (c, r') | _ => None end.
  Proof. reflexivity. Qed.
  Lemma r_not_not inner n r :
    r_not inner (S n) (TNot :: r) = match r_not inner n r with Some (c, r') => Some (CNot c, r') | None => None end.
  Proof. reflexivity. Qed.

  (* the parser [p] consumes exactly [ts] and yields a tree that flattens like [c], whatever follows, provided [stop]
     holds of what follows (it must not continue the phrase) and the fuel covers the input *)
  Definition Reads (p : nat -> list stok -> option (crit * list stok)) (stop : list stok -> Prop)
                   (ts : list stok) (c : crit) : Prop :=
    forall f rest, List.length (ts ++ rest) <= f -> stop rest ->
    exists c', p f (ts ++ rest) = Some (c', rest) /\ flat c' = flat c.

  Lemma Reads_ext p q (stop stop' : list stok -> Prop) ts c :
    (forall f l, q f l = p f l) -> (forall rest, stop' rest -> stop rest) -> Reads p stop ts c -> Reads q stop' ts c.
  Proof. intros Hp Hs H f rest Hf Hr. rewrite Hp. apply H; auto. Qed.

  Definition nosep (is_s : stok -> bool) (rest : list stok) : Prop :=
    match rest with t :: _ => is_s t = false | [] => True end.

  (* One level of the grammar, [sub (s sub)*], read into a left-nested tree of [mk]: AND over NOT, OR over AND. *)
  Section Chain.
    Variables (s : stok) (is_s : stok -> bool) (mk : crit -> crit -> crit).
    Variable sub : nat -> list stok -> option (crit * list stok).
    Variable stop : list stok -> Prop.
    Hypothesis is_s_s : is_s s = true.
    Hypothesis stop_s : forall r, stop (s :: r).
    Hypothesis mk_cong : forall a a' b b', flat a' = flat a -> flat b' = flat b -> flat (mk a' b') = flat (mk a b).
    Hypothesis mk_assoc : forall a b c, flat (mk (mk a b) c) = flat (mk a (mk b c)).

    Fixpoint chain (f n : nat) (acc : crit) (ts : list stok) : option (crit * list stok) :=
      match n with
      | O => None
      | S m => match ts with
               | t :: r => if is_s t
                           then match sub f r with Some (c, r') => chain f m (mk acc c) r' | None => None end
                           else Some (acc, ts)
               | [] => Some (acc, ts)
               end
      end.

    Definition chain_start (f : nat) (ts : list stok) : option (crit * list stok) :=
      match sub f ts with Some (c, r) => chain f (S (List.length r)) c r | None => None end.

    (* [Phrase ts c]: the loop consumes [ts] and goes on with a tree for [c] in its accumulator, whether it meets [ts] first
       ([at_start]) or after a separator in mid-loop ([after_sep]).  What it goes on with is a call of [chain] on the rest
       whose counter [n'] still exceeds the length of the rest: that is what lets [Phrase_join] put two phrases in a row *)
    Definition at_start (ts : list stok) (c : crit) : Prop :=
      forall f rest, List.length (ts ++ rest) <= f -> stop rest ->
      exists c' n', chain_start f (ts ++ rest) = chain f n' c' rest /\ List.length rest < n' /\ flat c' = flat c.
    Definition after_sep (ts : list stok) (c : crit) : Prop :=
      forall f n acc rest, List.length (s :: ts ++ rest) <= f -> List.length (s :: ts ++ rest) < n -> stop rest ->
      exists acc' n', chain f n acc (s :: ts ++ rest) = chain f n' acc' rest /\ List.length rest < n' /\
                      flat acc' = flat (mk acc c).
    Definition Phrase (ts : list stok) (c : crit) : Prop := at_start ts c /\ after_sep ts c.

    Lemma chain_stop f n acc rest : nosep is_s rest -> 0 < n -> chain f n acc rest = Some (acc, rest).
    Proof.
      intros H Hn. destruct n; [lia|]. destruct rest as [|t r]; [reflexivity|].
      cbn in H |- *. rewrite H. reflexivity.
    Qed.

    Lemma chain_step f n acc ts :
      chain f (S n) acc (s :: ts) = match sub f ts with Some (c, r') => chain f n (mk acc c) r' | None => None end.
    Proof. cbn [chain]. rewrite is_s_s. reflexivity. Qed.

    Lemma Phrase_of_sub ts c : Reads sub stop ts c -> Phrase ts c.
    Proof.
      intros H. split.
      - intros f rest Hf Hs. unfold chain_start.
        destruct (H f rest Hf Hs) as (c' & E & Hc). rewrite E.
        exists c', (S (List.length rest)). split; [reflexivity|]. split; [lia|exact Hc].
      - intros f n acc rest Hf Hn Hs. cbn [List.length] in Hf, Hn. destruct n; [lia|].
        rewrite chain_step.
        destruct (H f rest) as (c' & E & Hc); [lia|exact Hs|].
        rewrite E. exists (mk acc c'), n. split; [reflexivity|]. split.
        + rewrite app_length in Hn. lia.
        + apply mk_cong; [reflexivity|exact Hc].
    Qed.

    Lemma Phrase_join ta a tb b : Phrase ta a -> Phrase tb b -> Phrase (ta ++ [s] ++ tb) (mk a b).
    Proof.
      intros (Ha0 & Ha1) (_ & Hb1). cbn [app]. split.
      - intros f rest Hf Hs. rewrite <- app_assoc in *. cbn [app] in *.
        destruct (Ha0 f (s :: tb ++ rest)) as (a' & n1 & E1 & Hn1 & Hc1); [lia|apply stop_s|].
        rewrite E1.
        destruct (Hb1 f n1 a' rest) as (acc' & n2 & E2 & Hn2 & Hc2); [rewrite app_length in Hf; lia|lia|exact Hs|].
        rewrite E2. exists acc', n2. split; [reflexivity|]. split; [exact Hn2|].
        rewrite Hc2. apply mk_cong; [exact Hc1|reflexivity].
      - intros f n acc rest Hf Hn Hs. rewrite <- app_assoc in *. cbn [app] in *.
        destruct (Ha1 f n acc (s :: tb ++ rest)) as (acc1 & n1 & E1 & Hn1 & Hc1); [lia|lia|apply stop_s|].
        rewrite E1.
        destruct (Hb1 f n1 acc1 rest) as (acc2 & n2 & E2 & Hn2 & Hc2);
          [cbn [List.length] in Hf; rewrite app_length in Hf; lia|lia|exact Hs|].
        rewrite E2. exists acc2, n2. split; [reflexivity|]. split; [exact Hn2|].
        rewrite Hc2, <- mk_assoc. apply mk_cong; [exact Hc1|reflexivity].
    Qed.

    Lemma Reads_start ts c : Phrase ts c -> Reads chain_start (fun rest => stop rest /\ nosep is_s rest) ts c.
    Proof.
      intros (H & _) f rest Hf (Hs & Hn).
      destruct (H f rest Hf Hs) as (c' & n' & E & Hn' & Hc).
      rewrite E, chain_stop by (assumption || lia).
      exists c'. split; [reflexivity|exact Hc].
    Qed.
  End Chain.

  Definition is_and (t : stok) : bool := match t with TAnd => true | _ => false end.
  Definition is_or (t : stok) : bool := match t with TOr => true | _ => false end.
  Definition sub_and (f : nat) (ts : list stok) := r_not (read_or f) (S (List.length ts)) ts.
  Definition sub_or (f : nat) := and_expr (read_or f).

  Lemma r_and_chain f n : forall acc ts, r_and (read_or f) n acc ts = chain is_and CAnd sub_and f n acc ts.
  Proof.
    induction n as [|n IH]; intros acc ts; [reflexivity|].
    destruct ts as [|[] r]; try reflexivity.
    cbn [r_and chain is_and]. unfold sub_and. destruct (r_not _ _ r) as [[c r']|]; [apply IH|reflexivity].
  Qed.

  Lemma and_expr_start f ts : sub_or f ts = chain_start is_and CAnd sub_and f ts.
  Proof.
    unfold sub_or, and_expr, chain_start, sub_and. destruct (r_not _ _ ts) as [[c r]|]; [apply r_and_chain|reflexivity].
  Qed.

  Lemma r_or_chain f n : forall acc ts, r_or (read_or f) n acc ts = chain is_or COr sub_or f n acc ts.
  Proof.
    induction n as [|n IH]; intros acc ts; [reflexivity|].
    destruct ts as [|[] r]; try reflexivity.
    cbn [r_or chain is_or]. unfold sub_or. destruct (and_expr _ r) as [[c r']|]; [apply IH|reflexivity].
  Qed.

  Lemma read_or_start f ts : read_or (S f) ts = chain_start is_or COr sub_or f ts.
  Proof.
    rewrite read_or_S. unfold chain_start, sub_or. destruct (and_expr _ ts) as [[c r]|]; [apply r_or_chain|reflexivity].
  Qed.

  Lemma flat_and_cong a a' b b' : flat a' = flat a -> flat b' = flat b -> flat (CAnd a' b') = flat (CAnd a b).
  Proof. intros H1 H2. cbn [flat]. rewrite H1, H2. reflexivity. Qed.
  Lemma flat_or_cong a a' b b' : flat a' = flat a -> flat b' = flat b -> flat (COr a' b') = flat (COr a b).
  Proof. intros H1 H2. cbn [flat]. rewrite H1, H2. reflexivity. Qed.
  Lemma flat_and_assoc a b c : flat (CAnd (CAnd a b) c) = flat (CAnd a (CAnd b c)).
  Proof. cbn [flat]. rewrite app_assoc. reflexivity. Qed.
  Lemma flat_or_assoc a b c : flat (COr (COr a b) c) = flat (COr a (COr b c)).
  Proof. cbn [flat]. rewrite app_assoc. reflexivity. Qed.

  Definition stop_and : list stok -> Prop := nosep is_and.
  Definition stop_or (rest : list stok) : Prop := stop_and rest /\ nosep is_or rest.
  (* [Reads] for [r_not], for every value of its loop counter above the length, so that the NOT case can recurse *)
  Definition not_operand (ts : list stok) (c : crit) : Prop :=
    forall f n rest, List.length (ts ++ rest) <= f -> List.length (ts ++ rest) < n ->
    exists c', r_not (read_or f) n (ts ++ rest) = Some (c', rest) /\ flat c' = flat c.
  Definition and_phrase : list stok -> crit -> Prop := Phrase TAnd is_and CAnd sub_and (fun _ => True).
  Definition or_phrase : list stok -> crit -> Prop := Phrase TOr is_or COr sub_or stop_and.
  Definition reads_or : list stok -> crit -> Prop := Reads (fun f => read_or (S f)) stop_or.

  Lemma not_operand_leaf k : not_operand [TLeaf k] (CLeaf k).
  Proof.
    intros f n rest _ Hn. destruct n; [lia|]. cbn [app]. rewrite r_not_leaf. exists (CLeaf k). split; reflexivity.
  Qed.

  Lemma not_operand_not ta a : not_operand ta a -> not_operand ([TNot] ++ ta) (CNot a).
  Proof.
    intros H f n rest Hf Hn. cbn [app List.length] in Hf, Hn |- *. destruct n; [lia|].
    rewrite r_not_not.
    destruct (H f n rest) as (c' & E & Hc); [lia|lia|].
    rewrite E. exists (CNot c'). split; [reflexivity|]. cbn [flat]. rewrite Hc. reflexivity.
  Qed.

  Lemma not_operand_paren ts c : reads_or ts c -> not_operand ([TLp] ++ ts ++ [TRp]) c.
  Proof.
    intros H f n rest Hf Hn.
    change (([TLp] ++ ts ++ [TRp]) ++ rest) with (TLp :: ((ts ++ [TRp]) ++ rest)) in *.
    rewrite <- app_assoc in *. cbn [app] in *. cbn [List.length] in Hf, Hn.
    destruct n; [lia|]. rewrite r_not_lp.
    destruct f as [|f]; [lia|].
    destruct (H f (TRp :: rest)) as (c' & E & Hc); [lia|split; reflexivity|].
    rewrite E. exists c'. split; [reflexivity|exact Hc].
  Qed.

  Lemma and_of_operand ts c : not_operand ts c -> and_phrase ts c.
  Proof. intros H. unfold and_phrase. apply Phrase_of_sub; [reflexivity|exact flat_and_cong|]. intros f rest Hf _. apply H; lia. Qed.

  Lemma or_of_and ts c : and_phrase ts c -> or_phrase ts c.
  Proof.
    intros H. unfold or_phrase. apply Phrase_of_sub; [reflexivity|exact flat_or_cong|].
    apply (Reads_ext _ _ _ _ _ _ and_expr_start (fun rest Hr => conj I Hr)), (Reads_start TAnd), H.
  Qed.

  Lemma reads_of_or ts c : or_phrase ts c -> reads_or ts c.
  Proof. intros H. apply (Reads_ext _ _ _ _ _ _ read_or_start (fun rest Hr => Hr)), (Reads_start TOr), H. Qed.

  Lemma and_phrase_and ta a tb b : and_phrase ta a -> and_phrase tb b -> and_phrase (ta ++ [TAnd] ++ tb) (CAnd a b).
  Proof. exact (Phrase_join _ _ _ _ _ (fun _ => I) flat_and_cong flat_and_assoc ta a tb b). Qed.

  Lemma or_phrase_or ta a tb b : or_phrase ta a -> or_phrase tb b -> or_phrase (ta ++ [TOr] ++ tb) (COr a b).
  Proof. exact (Phrase_join _ _ _ _ _ (fun _ => eq_refl) flat_or_cong flat_or_assoc ta a tb b). Qed.

  Lemma P_OR_lt_AND : N.ltb P_OR P_AND = true.
  Proof. reflexivity. Qed.
  Lemma P_AND_lt_NOT : N.ltb P_AND P_NOT = true.
  Proof. reflexivity. Qed.

  (* What a printed list is, by the binding power it was printed under: always an OR-phrase; an AND-phrase under
     [outer > P_OR], where an OR would have been put in parentheses; an operand of NOT under [outer > P_AND].
     Parentheses lead back to the top level ([not_operand_paren]).  Of the binding powers the proof uses
     OR < AND < NOT and nothing else. *)
  Definition read_levels (outer : N) (ts : list stok) (c : crit) : Prop :=
    or_phrase ts c /\
    (N.ltb P_OR outer = true -> and_phrase ts c) /\
    (N.ltb P_AND outer = true -> not_operand ts c).

  Lemma levels_of_operand outer ts c : not_operand ts c -> read_levels outer ts c.
  Proof.
    intros H. split; [apply or_of_and, and_of_operand, H|]. split; intros _; [apply and_of_operand, H|exact H].
  Qed.

  Lemma toks_levels c : forall outer, read_levels outer (sql_toks c outer) c.
  Proof.
    induction c as [k|a IHa b IHb|a IHa b IHb|a IHa]; intros outer; cbn [sql_toks].
    - apply levels_of_operand, not_operand_leaf.
    - assert (Hb : and_phrase (sql_toks a P_AND ++ [TAnd] ++ sql_toks b P_AND) (CAnd a b)).
      { apply and_phrase_and; [apply (IHa P_AND)|apply (IHb P_AND)]; exact P_OR_lt_AND. }
      destruct (N.ltb P_AND outer) eqn:E.
      + apply levels_of_operand, not_operand_paren, reads_of_or, or_of_and, Hb.
      + split; [apply or_of_and, Hb|]. split; [intros _; exact Hb|rewrite E; discriminate].
    - assert (Hb : or_phrase (sql_toks a P_OR ++ [TOr] ++ sql_toks b P_OR) (COr a b)).
      { apply or_phrase_or; [apply (IHa P_OR)|apply (IHb P_OR)]. }
      destruct (N.ltb P_OR outer) eqn:E.
      + apply levels_of_operand, not_operand_paren, reads_of_or, Hb.
      + split; [exact Hb|]. split; [rewrite E; discriminate|].
        intros E'. exfalso. apply N.ltb_lt in E'. apply N.ltb_ge in E.
        pose proof (proj1 (N.ltb_lt _ _) P_OR_lt_AND). lia.
    - assert (Hb : not_operand ([TNot] ++ sql_toks a P_NOT) (CNot a)).
      { apply not_operand_not, (IHa P_NOT), P_AND_lt_NOT. }
      destruct (N.ltb P_NOT outer).
      + apply levels_of_operand, not_operand_paren, reads_of_or, or_of_and, and_of_operand, Hb.
      + apply levels_of_operand, Hb.
  Qed.

  Lemma roundtrip : forall c outer,
    exists c', read (sql_toks c outer) = Some c' /\ flat c' = flat c.
  Proof.
    intros c outer. destruct (toks_levels c outer) as (H & _).
    destruct (reads_of_or _ _ H (List.length (sql_toks c outer)) []) as (c' & E & Hc);
      [rewrite app_nil_r; lia|split; exact I|].
    rewrite app_nil_r in E. exists c'. split; [|exact Hc]. unfold read. rewrite E. reflexivity.
  Qed.
End Reader.

Print Assumptions text_is_tokens.
Print Assumptions roundtrip.
Print Assumptions quote_safe.
Print Assumptions string_operand.
Print Assumptions scalars.
Print Assumptions names.
