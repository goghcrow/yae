(* UTF-8: EncodeRune and DecodeRune (Model/Literal.utf8_encode, Model/Render.utf8_decode) in base-64 digits:
   decoding undoes encoding on scalar values, and a decoding step reads the encoding of a scalar value or rejects
   one byte.  [decode_all] reads the same runes with any fuel that covers the length ([decode_all_fuel]).
   Used for quote_injective (C18) and the rune count of strings (C04). *)
From Coq Require Import List Bool Arith NArith Lia.
From Yae Require Import Model.Lexer Model.Literal Model.Render Proofs.ListFacts.
Import ListNotations.
Local Open Scope nat_scope.
Local Open Scope list_scope.

Section Utf8.
  Local Open Scope N_scope.

  Local Lemma between lo x hi : (lo <=? x) && (x <=? hi) = true <-> lo <= x <= hi.
  Proof. rewrite andb_true_iff, !N.leb_le. reflexivity. Qed.

  Local Lemma outside lo x hi : x < lo \/ hi < x -> (lo <=? x) && (x <=? hi) = false.
  Proof. intros H. rewrite andb_false_iff, !N.leb_gt. lia. Qed.

  Local Lemma off k x : k + x - k = x.
  Proof. lia. Qed.

  Local Lemma offset k x : k <= x -> exists y, x = k + y.
  Proof. exists (x - k). lia. Qed.

  Local Lemma split64 c : exists q d, c = q * 64 + d /\ d < 64.
  Proof. exists (c / 64), (c mod 64). split; [rewrite N.mul_comm; apply N.div_mod'|apply N.mod_lt; discriminate]. Qed.

  (* [utf8 c l]: the bytes [l] spell the scalar value [c] in base-64 digits, in the shortest form *)
  Inductive utf8 : N -> list N -> Prop :=
  | U1 c : c < 128 -> utf8 c [c]
  | U2 c a b : c = a * 64 + b -> b < 64 -> 128 <= c < 2048 -> utf8 c [192 + a; 128 + b]
  | U3 c a b d : c = a * 4096 + b * 64 + d -> b < 64 -> d < 64 -> 2048 <= c < 65536 -> ~ 55296 <= c <= 57343 ->
      utf8 c [224 + a; 128 + b; 128 + d]
  | U4 c a b d e : c = a * 262144 + b * 4096 + d * 64 + e -> b < 64 -> d < 64 -> e < 64 -> 65536 <= c < 1114112 ->
      utf8 c [240 + a; 128 + b; 128 + d; 128 + e].

  Lemma utf8_scalar c : c < 1114112 -> ~ 55296 <= c <= 57343 -> exists l, utf8 c l.
  Proof.
    intros H1 H2.
    destruct (split64 c) as (q1 & e & Ec & He), (split64 q1) as (q2 & d & E1 & Hd), (split64 q2) as (a & b & E2 & Hb).
    destruct (N.lt_ge_cases c 128); [eexists; apply U1; assumption|].
    destruct (N.lt_ge_cases c 2048); [eexists; apply (U2 c q1 e); lia|].
    destruct (N.lt_ge_cases c 65536); [eexists; apply (U3 c q2 d e); lia|].
    eexists; apply (U4 c a b d e); lia.
  Qed.

  Lemma utf8_encode_ok c l : utf8 c l -> utf8_encode c = l.
  Proof.
    intros H. unfold utf8_encode. cbv zeta.
    replace ((55296 <=? c) && (c <=? 57343) || (1114111 <? c)) with false.
    2:{ symmetry. apply orb_false_iff. split; [apply outside|apply N.ltb_ge]; destruct H; lia. }
    destruct H as [c H|c a b E Hb H|c a b d E Hb Hd H Hs|c a b d e E Hb Hd He H].
    - rewrite (proj2 (N.ltb_lt c 128)) by lia. reflexivity.
    - rewrite (proj2 (N.ltb_ge c 128)), (proj2 (N.ltb_lt c 2048)),
        <- (N.div_unique c 64 a b), <- (N.mod_unique c 64 a b) by lia. reflexivity.
    - rewrite (proj2 (N.ltb_ge c 128)), (proj2 (N.ltb_ge c 2048)), (proj2 (N.ltb_lt c 65536)),
        <- (N.div_unique c 4096 a (b * 64 + d)), <- (N.div_unique c 64 (a * 64 + b) d),
        <- (N.mod_unique (a * 64 + b) 64 a b), <- (N.mod_unique c 64 (a * 64 + b) d) by lia. reflexivity.
    - rewrite (proj2 (N.ltb_ge c 128)), (proj2 (N.ltb_ge c 2048)), (proj2 (N.ltb_ge c 65536)),
        <- (N.div_unique c 262144 a (b * 4096 + d * 64 + e)),
        <- (N.div_unique c 4096 (a * 64 + b) (d * 64 + e)), <- (N.mod_unique (a * 64 + b) 64 a b),
        <- (N.div_unique c 64 (a * 4096 + b * 64 + d) e), <- (N.mod_unique (a * 4096 + b * 64 + d) 64 (a * 64 + b) d),
        <- (N.mod_unique c 64 (a * 4096 + b * 64 + d) e) by lia. reflexivity.
  Qed.

  Lemma utf8_head c l : utf8 c l -> exists b0 t, l = b0 :: t /\ (b0 < 128 -> c = b0) /\ (t = [] -> c < 128).
  Proof.
    destruct 1; eexists; eexists; (split; [reflexivity|split; [intros; lia|intros; (assumption || discriminate)]]).
  Qed.

  (* the window DecodeRune allows the second of three or four bytes, in digits: no overlong form, no surrogate,
     nothing above U+10FFFF *)
  Local Lemma second3 a b :
    (if 224 + a =? 224 then 160 else 128) <= 128 + b <= (if 224 + a =? 237 then 159 else 191) <->
    b < 64 /\ (a = 0 -> 32 <= b) /\ (a = 13 -> b < 32).
  Proof. destruct (N.eqb_spec (224 + a) 224), (N.eqb_spec (224 + a) 237); lia. Qed.

  Local Lemma second4 a b :
    (if 240 + a =? 240 then 144 else 128) <= 128 + b <= (if 240 + a =? 244 then 143 else 191) <->
    b < 64 /\ (a = 0 -> 16 <= b) /\ (a = 4 -> b < 16).
  Proof. destruct (N.eqb_spec (240 + a) 240), (N.eqb_spec (240 + a) 244); lia. Qed.

  Lemma utf8_decode_ok c l rest : utf8 c l -> utf8_decode (l ++ rest) = (c, List.length l).
  Proof.
    destruct 1 as [c H|c a b E Hb H|c a b d E Hb Hd H Hs|c a b d e E Hb Hd He H]; cbn [app List.length];
      unfold utf8_decode, cont.
    - rewrite (proj2 (N.ltb_lt c 128) H). reflexivity.
    - rewrite (proj2 (N.ltb_ge (192 + a) 128)), (proj2 (between 194 (192 + a) 223)),
        (proj2 (between 128 (128 + b) 191)), !off, E by lia. reflexivity.
    - rewrite (proj2 (N.ltb_ge (224 + a) 128)), (outside 194 (224 + a) 223), (proj2 (between 224 (224 + a) 239)),
        (proj2 (between 128 (128 + d) 191)), (proj2 (between _ (128 + b) _)), !off, E by (try apply second3; lia).
      reflexivity.
    - rewrite (proj2 (N.ltb_ge (240 + a) 128)), (outside 194 (240 + a) 223), (outside 224 (240 + a) 239),
        (proj2 (between 240 (240 + a) 244)), (proj2 (between 128 (128 + d) 191)), (proj2 (between 128 (128 + e) 191)),
        (proj2 (between _ (128 + b) _)), !off, E by (try apply second4; lia).
      reflexivity.
  Qed.

  Lemma utf8_decode_inv a0 ar r w : utf8_decode (a0 :: ar) = (r, w) ->
    ((r, w) = (65533, 1%nat) /\ 128 <= a0) \/
    (exists l rest, utf8 r l /\ a0 :: ar = l ++ rest /\ w = List.length l).
  Proof.
    unfold utf8_decode, cont. intros H.
    destruct (N.ltb_spec a0 128) as [L|L].
    { injection H as <- <-. right. exists [a0], ar. split; [apply U1; exact L|split; reflexivity]. }
    assert ((65533, 1%nat) = (r, w) -> (r, w) = (65533, 1%nat) /\ 128 <= a0) as Hbad by (intros <-; split; trivial).
    destruct (N.leb 194 a0 && N.leb a0 223) eqn:E2.
    { destruct ar as [|a1 ar]; [left; exact (Hbad H)|].
      destruct (N.leb 128 a1 && N.leb a1 191) eqn:C; [|left; exact (Hbad H)].
      apply between in E2, C. destruct (offset 192 a0) as [a ->], (offset 128 a1) as [b ->]; try lia.
      rewrite !off in H. injection H as <- <-. right. exists [192 + a; 128 + b], ar.
      split; [apply (U2 _ a b); lia|split; reflexivity]. }
    destruct (N.leb 224 a0 && N.leb a0 239) eqn:E3.
    { destruct ar as [|a1 [|a2 ar]]; try (left; exact (Hbad H)).
      match type of H with (if ?c then _ else _) = _ => destruct c eqn:C end; [|left; exact (Hbad H)].
      apply andb_prop in C. destruct C as [C1 C2]. apply between in E3, C1, C2.
      destruct (offset 224 a0) as [a ->], (offset 128 a2) as [d ->]; try lia.
      destruct (offset 128 a1) as [b ->]; [destruct (224 + a =? 224) in C1; lia|]. apply second3 in C1.
      rewrite !off in H. injection H as <- <-. right. exists [224 + a; 128 + b; 128 + d], ar.
      split; [apply (U3 _ a b d); lia|split; reflexivity]. }
    destruct (N.leb 240 a0 && N.leb a0 244) eqn:E4; [|left; exact (Hbad H)].
    destruct ar as [|a1 [|a2 [|a3 ar]]]; try (left; exact (Hbad H)).
    match type of H with (if ?c then _ else _) = _ => destruct c eqn:C end; [|left; exact (Hbad H)].
    apply andb_prop in C. destruct C as [C C3]. apply andb_prop in C. destruct C as [C1 C2].
    apply between in E4, C1, C2, C3.
    destruct (offset 240 a0) as [a ->], (offset 128 a2) as [d ->], (offset 128 a3) as [e ->]; try lia.
    destruct (offset 128 a1) as [b ->]; [destruct (240 + a =? 240) in C1; lia|]. apply second4 in C1.
    rewrite !off in H. injection H as <- <-. right. exists [240 + a; 128 + b; 128 + d; 128 + e], ar.
    split; [apply (U4 _ a b d e); lia|split; reflexivity].
  Qed.

  Lemma decode_width_pos a0 ar r w : utf8_decode (a0 :: ar) = (r, w) -> (1 <= w)%nat.
  Proof.
    intros E. destruct (utf8_decode_inv _ _ _ _ E) as [[[= _ ->] _]|(l & _ & Hu & _ & ->)]; [lia|].
    destruct (utf8_head _ _ Hu) as (b0 & t & -> & _). cbn [List.length]. lia.
  Qed.
End Utf8.

Lemma decode_all_fuel : forall f1 f2 l, (List.length l <= f1)%nat -> (List.length l <= f2)%nat ->
  decode_all f1 l = decode_all f2 l.
Proof.
  induction f1 as [|f1 IH]; intros f2 l H1 H2.
  - destruct l; [|simpl in H1; lia]. destruct f2; reflexivity.
  - destruct l as [|a0 ar]; [destruct f2; reflexivity|].
    destruct f2 as [|f2]; [simpl in H2; lia|].
    cbn [decode_all]. destruct (utf8_decode (a0 :: ar)) as [r w] eqn:E. f_equal.
    pose proof (decode_width_pos _ _ _ _ E) as Hw.
    apply IH; rewrite skipn_length; cbn [List.length] in *; lia.
Qed.
