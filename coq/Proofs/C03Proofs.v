(* Proofs for Props/C03.v: the bytecode VM against the reference evaluator, over the dispatch loop and the shape of
   compiled code ([cshape]) of Proofs/VMFacts.v.  Four layers: [runs], the loop consumes a fragment and goes on behind
   it; [exec], a fragment at an offset, the stack given by the entries it reads and leaves; [simulates], an evaluator
   computation against a fragment, for every large enough thunk fuel; [sim_step], every expression whose annotations
   are [annot_ok] is simulated by its code, by induction on the evaluator's fuel and cases on [cshape].
   Three fuels: [f] the evaluator's, [F] the one [vm_run] is given for thunk bodies, [g] the dispatch loop's. *)
From Coq Require Import List String Ascii Bool NArith ZArith Lia Arith.
From Yae Require Import Proofs.ListFacts Proofs.ValFacts Proofs.EvalFacts
  Base.Sexp Model.Ty Gen.Generated Model.Unify Model.Num Model.Lexer Model.Literal Model.Cst
  Model.Check Model.CheckSpec Model.Val Model.Render Model.ValSpec Model.Builtins Model.Eval Model.EvalSpec Model.VM Proofs.VMFacts.
From Yae Require Proofs.C05Proofs Proofs.C01Proofs.
Import ListNotations.
Local Open Scope string_scope.
Local Open Scope list_scope.

Lemma intrinsics_agree :
  forallb (fun row => let '(name, ps, opn) := row in
             match find (fun o => String.eqb (op_name o) opn) all_ops, classify name ps with
             | Some o, Some b => match intrinsic_sem o with
                                 | Some (b', k) => bfun_beq b b' && Nat.eqb k (List.length ps)
                                 | None => false end
             | _, _ => false
             end) intrinsics_cbv = true /\
  forallb (fun row => match classify (fst row) (snd row) with
                      | Some BIf | Some BAnd | Some BOr | Some BNot => true
                      | _ => false end) intrinsics_cbn = true.
Proof. exact (conj cbv_rows_agree cbn_rows_classified). Qed.

Lemma mbind_ret_r : forall X (m : M X), mbind m (fun x => ret x) = m.
Proof. intros X [t [x|k|k]]; cbn; rewrite ?app_nil_r; reflexivity. Qed.

Lemma mbind_fail : forall X Y t k (f : X -> M Y), mbind (t, OFail k) f = (t, OFail k).
Proof. reflexivity. Qed.

Lemma mbind_fault : forall X Y t k (f : X -> M Y), mbind (t, OFault k) f = (t, OFault k).
Proof. reflexivity. Qed.

Lemma only_refusal : forall (ops : numops) (orc : oracles) fe a,
  compile_main ops orc fe a = CErr \/ compile_main ops orc fe a = CFuel \/
  exists code pool, compile_main ops orc fe a = COk (code, pool).
Proof.
  intros. destruct (compile_main ops orc fe a) as [[c p]| |].
  - right. right. exists c, p. reflexivity.
  - left. reflexivity.
  - right. left. reflexivity.
Qed.

Section MRel.
  Variable Q : outcome val -> Prop.
  Hypothesis Qval : forall v, Q (OVal v).

  Definition m_rel (m1 m2 : M val) : Prop := forall t o, m1 = (t, o) -> Q o -> m2 = (t, o).

  Definition outcome_rel {X Y} (R : X -> Y -> Prop) (m1 : M X) (m2 : M Y) : Prop :=
    fst m1 = fst m2 /\
    match snd m1, snd m2 with
    | OVal x, OVal y => R x y
    | OFail k1, OFail k2 => k1 = k2
    | OFault k1, OFault k2 => k1 = k2
    | _, _ => False
    end.

  Lemma m_rel_refl : forall m, m_rel m m.
  Proof. intros m t o H _. exact H. Qed.

  Lemma m_sim_refl : forall X (m : M X), outcome_rel eq m m.
  Proof. intros X [t [x|k|k]]; split; reflexivity. Qed.

  Lemma m_rel_bind_sim : forall X Y (R : X -> Y -> Prop) (m1 : M X) (m2 : M Y) k1 k2,
    outcome_rel R m1 m2 -> (forall x y, R x y -> m_rel (k1 x) (k2 y)) -> m_rel (mbind m1 k1) (mbind m2 k2).
  Proof.
    intros X Y R [t1 o1] [t2 o2] k1 k2 [Ht Ho] Hk t o H HQ. cbn in Ht, Ho. subst t2.
    destruct o1 as [x|k|k], o2 as [y|k'|k']; try contradiction.
    - rewrite mbind_val in H. rewrite mbind_val. destruct (k1 x) as [t' o'] eqn:E. unfold tpre in H. cbn in H.
      inversion H; subst. rewrite (Hk x y Ho _ _ E HQ). reflexivity.
    - subst k'. exact H.
    - subst k'. exact H.
  Qed.

  Lemma m_rel_bind_same : forall X (m : M X) k1 k2,
    (forall x, m_rel (k1 x) (k2 x)) -> m_rel (mbind m k1) (mbind m k2).
  Proof.
    intros X m k1 k2 Hk. apply (m_rel_bind_sim X X eq); [apply m_sim_refl|]. intros x y E. subst y. apply Hk.
  Qed.

  Lemma m_rel_bind : forall (m1 m2 : M val) k1 k2,
    m_rel m1 m2 -> (forall x, m_rel (k1 x) (k2 x)) -> m_rel (mbind m1 k1) (mbind m2 k2).
  Proof.
    intros [t1 o1] m2 k1 k2 Hm Hk t o H HQ.
    destruct o1 as [x|k|k].
    - rewrite (Hm _ _ eq_refl (Qval x)). rewrite mbind_val in *.
      destruct (k1 x) as [t' o'] eqn:E. unfold tpre in H. cbn in H. inversion H; subst.
      rewrite (Hk x _ _ E HQ). reflexivity.
    - cbn in H. inversion H; subst. rewrite (Hm _ _ eq_refl HQ). reflexivity.
    - cbn in H. inversion H; subst. rewrite (Hm _ _ eq_refl HQ). reflexivity.
  Qed.

  Definition th_rel (th1 th2 : unit -> M val) : Prop := m_rel (th1 tt) (th2 tt).

  (* the lazy built-ins and host functions run their thunks one by one; everything else is the same computation on
     both sides *)
  Ltac thunkwise HF :=
    repeat first [ apply m_rel_refl
                 | assumption
                 | destruct HF as [|? ? ? ? ? HF]
                 | apply m_rel_bind; [assumption|intros ?]
                 | apply m_rel_bind_same; intros [|] ].

  Lemma host_lazy_rel : forall name ths1 ths2,
    Forall2 th_rel ths1 ths2 -> m_rel (host_lazy name ths1) (host_lazy name ths2).
  Proof.
    intros name ths1 ths2 HF. unfold host_lazy.
    destruct (name =? "lazyif"); [apply m_rel_bind_same; intros _; thunkwise HF|].
    destruct (name =? "both"); [apply m_rel_bind_same; intros _; thunkwise HF|apply m_rel_refl].
  Qed.

  Lemma apply_lazy_rel : forall sg ths1 ths2,
    Forall2 th_rel ths1 ths2 -> m_rel (apply_lazy sg ths1) (apply_lazy sg ths2).
  Proof.
    intros sg ths1 ths2 HF. unfold apply_lazy.
    destruct (classify (s_name sg) (s_params sg)) as [b|]; [|apply host_lazy_rel; exact HF].
    destruct b; try (apply host_lazy_rel; exact HF); thunkwise HF.
  Qed.

  Lemma lazy_rel : forall sg ths1 ths2,
    Forall2 th_rel ths1 ths2 ->
    m_rel (lazy_call sg ths1) (lazy_call sg ths2).
  Proof. intros. unfold lazy_call. destruct (sig_is_builtin sg); [apply apply_lazy_rel|apply host_lazy_rel]; assumption. Qed.
End MRel.

Section CallThread.
  Variable ops : numops.
  Variable orc : oracles.
  Variable rho : venv.
  Variable pool : list const.

  Definition not_limit (o : outcome val) : Prop := o <> OFault XLimit.
  Definition nonfault (o : outcome val) : Prop := is_fault o = false.

  Notation mrl := (m_rel not_limit).

  Lemma thunks_sim : forall (Q : outcome val -> Prop) run1 run2 xs,
    (forall body, m_rel Q (run1 body) (run2 body)) ->
    outcome_rel (Forall2 (th_rel Q)) (mmapM (thunk_of run1) xs) (mmapM (thunk_of run2) xs).
  Proof.
    intros Q run1 run2 xs Hr. induction xs as [|x xs IH].
    - split; cbn; [reflexivity|constructor].
    - cbn [mmapM]. fold (mmapM (thunk_of run1)). fold (mmapM (thunk_of run2)).
      destruct x as [v|body rt]; cbn [thunk_of].
      + split; reflexivity.
      + rewrite !mbind_ret_l.
        destruct IH as [Ht Ho].
        destruct (mmapM (thunk_of run1) xs) as [t1 o1], (mmapM (thunk_of run2) xs) as [t2 o2].
        cbn in Ht, Ho. subst t2.
        destruct o1 as [l1|k1|k1], o2 as [l2|k2|k2]; try contradiction; cbn.
        * split; [reflexivity|]. constructor; [|exact Ho]. unfold th_rel. apply Hr.
        * split; [reflexivity|exact Ho].
        * split; [reflexivity|exact Ho].
  Qed.

  Lemma vop_rel : forall (Q : outcome val -> Prop) (Qval : forall v, Q (OVal v)) run1 run2 code c1 c2 o r s,
    (forall body, m_rel Q (run1 body) (run2 body)) ->
    (forall r s, m_rel Q (c1 r s) (c2 r s)) ->
    m_rel Q (vop ops orc rho pool run1 code c1 o r s) (vop ops orc rho pool run2 code c2 o r s).
  Proof.
    intros Q Qval run1 run2 code c1 c2 o r s Hr Hc.
    destruct (intrinsic_sem o) as [[bf k]|] eqn:Hi.
    { destruct (add_num_dec o) as [->|Hd]; [apply Hc|]. rewrite !(vop_intrinsic _ _ _ _ _ _ _ _ _ _ _ _ Hi Hd).
      apply (m_rel_bind_same Q); intros [xs s1]; cbv beta iota.
      apply (m_rel_bind_same Q); intros vs. apply (m_rel_bind_same Q); intros res. apply Hc. }
    (* every handler but one is the same computation on both sides up to the continuation *)
    destruct o; try discriminate Hi; cbn [vop];
      try (repeat first [ apply Hc
                        | apply m_rel_refl
                        | apply (m_rel_bind_same Q); intros ?
                        | match goal with
                          | |- m_rel _ (let '(_, _) := ?p in _) _ => destruct p
                          | |- m_rel _ (match ?x with _ => _ end) _ => destruct x
                          | |- m_rel _ (if ?x then _ else _) _ => destruct x
                          end ]; fail).
    (* CALL_BY_NEED: the thunks of the two sides are related, not equal *)
    apply (m_rel_bind_same Q); intros [c r1]. apply (m_rel_bind_same Q); intros [argc r2].
    destruct c; try apply m_rel_refl. apply (m_rel_bind_same Q); intros [xs s1].
    apply (m_rel_bind_sim Q _ _ _ _ _ _ _ (thunks_sim Q run1 run2 xs Hr)); intros ths1 ths2 Hths.
    apply (m_rel_bind Q Qval); [apply lazy_rel; assumption|intros res; apply Hc].
  Qed.

  Lemma vmloop_rel : forall run1 run2 code,
    (forall body, mrl (run1 body) (run2 body)) ->
    forall g rest s k,
      mrl (vmloop ops orc rho pool run1 code g rest s (Some k)) (vmloop ops orc rho pool run2 code g rest s None).
  Proof.
    intros run1 run2 code Hr. induction g as [|g IH]; intros rest s k.
    - apply m_rel_refl.
    - cbn [vmloop]. destruct k as [|k].
      + intros t o H HQ. inversion H; subst. exfalso. apply HQ. reflexivity.
      + cbn [option_map pred]. destruct rest as [|b r]; [apply m_rel_refl|].
        destruct (decode_op b) as [o|]; [|apply m_rel_refl].
        apply vop_rel; [intros v E; discriminate E|exact Hr|]. intros r' s'. apply IH.
  Qed.

  Lemma vm_run_rel : forall lim f code,
    mrl (vm_run ops orc rho pool (Some lim) f code) (vm_run ops orc rho pool None f code).
  Proof.
    intros lim. induction f as [|f IH]; intros code.
    - apply m_rel_refl.
    - rewrite !vm_run_S. apply vmloop_rel. exact IH.
  Qed.
End CallThread.

Lemma callthread_agrees : forall (ops : numops) (orc : oracles) rho pool lim g code t o,
  vm_run ops orc rho pool (Some lim) g code = (t, o) -> o <> OFault XLimit ->
  vm_run ops orc rho pool None g code = (t, o).
Proof. intros ops orc rho pool lim g code t o H Hn. exact (vm_run_rel ops orc rho pool lim g code t o H Hn). Qed.

Definition omap {X Y} (k : X -> Y) (o : outcome X) : outcome Y :=
  match o with OVal x => OVal (k x) | OFail f => OFail f | OFault f => OFault f end.

Lemma omap_omap : forall X Y Z (f : X -> Y) (g : Y -> Z) o, omap g (omap f o) = omap (fun x => g (f x)) o.
Proof. intros X Y Z f g [x|k|k]; reflexivity. Qed.

Lemma is_fault_omap : forall X Y (k : X -> Y) o, is_fault (omap k o) = is_fault o.
Proof. intros X Y k [x|f|f]; reflexivity. Qed.

Ltac mret := rewrite mbind_ret_l; cbv beta iota.

Section Exec.
  Variable ops : numops.
  Variable orc : oracles.
  Variable rho : venv.
  Variable pool : list const.

  Section Runs.
  Variable run : list N -> M val.
  Variable code : list N.
  Notation loop := (vmloop ops orc rho pool run code).
  Notation vop' := (vop ops orc rho pool run code).

  (* at most one step of the loop per byte of [frag]; of a fault nothing is said *)
  Definition runs (frag c2 : list N) (s : list sval) (t : list event) (o : outcome (list sval)) : Prop :=
    forall g, (List.length frag <= g)%nat ->
    match o with
    | OVal s' => exists g', (g <= g' + List.length frag)%nat /\ loop g (frag ++ c2) s None = tpre t (loop g' c2 s' None)
    | OFail k => loop g (frag ++ c2) s None = (t, OFail k)
    | OFault _ => True
    end.

  Lemma runs_nil : forall c2 s, runs [] c2 s [] (OVal s).
  Proof. intros c2 s g _. exists g. split; [cbn; lia|]. rewrite tpre_nil. reflexivity. Qed.

  Lemma runs_seq : forall f1 f2 c2 s t1 s1 t2 o,
    runs f1 (f2 ++ c2) s t1 (OVal s1) -> runs f2 c2 s1 t2 o -> runs (f1 ++ f2) c2 s (t1 ++ t2) o.
  Proof.
    intros f1 f2 c2 s t1 s1 t2 o H1 H2 g Hg. rewrite app_length in Hg.
    destruct (H1 g ltac:(lia)) as [g1 [Hg1 E1]]. rewrite <- app_assoc, E1.
    specialize (H2 g1 ltac:(lia)). destruct o as [s'|k|k].
    - destruct H2 as [g2 [Hg2 E2]]. exists g2. split; [rewrite app_length; lia|]. rewrite E2, tpre_tpre. reflexivity.
    - rewrite H2. reflexivity.
    - exact I.
  Qed.

  Lemma runs_seq_fail : forall f1 f2 c2 s t1 k,
    runs f1 (f2 ++ c2) s t1 (OFail k) -> runs (f1 ++ f2) c2 s t1 (OFail k).
  Proof.
    intros f1 f2 c2 s t1 k H1 g Hg. rewrite app_length in Hg.
    rewrite <- app_assoc. apply (H1 g). lia.
  Qed.

  Lemma loop_S : forall g o r s,
    loop (S g) (op_byte o :: r) s None = vop' (fun r s => loop g r s None) o r s.
  Proof. intros. rewrite vmloop_S, decode_op_byte. reflexivity. Qed.

  Lemma runs_instr : forall X o tail c2 s (m : M X) (k : X -> list sval),
    (forall g, vop' (fun r s => loop g r s None) o (tail ++ c2) s = mbind m (fun x => loop g c2 (k x) None)) ->
    runs (op_byte o :: tail) c2 s (fst m) (omap k (snd m)).
  Proof.
    intros X o tail c2 s [t ox] k H g Hg. cbn [List.length] in Hg.
    destruct g as [|g]; [lia|]. cbn [app fst snd]. rewrite loop_S, H.
    destruct ox as [x|kf|kf]; cbn [omap].
    - exists g. split; [cbn [List.length]; lia|]. rewrite mbind_val. reflexivity.
    - reflexivity.
    - exact I.
  Qed.

  Lemma instr_return : forall g v s, loop (S g) [op_byte OP_RETURN] (SV v :: s) None = ret v.
  Proof. intros. rewrite loop_S. cbn [vop]. rewrite pop_val_SV, mbind_ret_l. reflexivity. Qed.
  End Runs.

  (* [frag], standing at [pc] in any code, turns the topmost entries [pre] into [o] (last pushed last) with trace [t],
     below them any stack [s]; thunk bodies run with fuel [F] *)
  Definition exec (F pc : nat) (frag : list N) (t : list event) (pre : list sval) (o : outcome (list sval)) : Prop :=
    forall code c2 s, skipn pc code = frag ++ c2 ->
      runs (vm_run ops orc rho pool None F) code frag c2 (rev pre ++ s) t (omap (fun xs => rev xs ++ s) o).

  Lemma exec_nil : forall F pc pre, exec F pc [] [] pre (OVal pre).
  Proof. intros F pc pre code c2 s _. apply runs_nil. Qed.

  Lemma exec_seq : forall F pc f1 f2 t1 t2 pre xs1 o2,
    exec F pc f1 t1 pre (OVal xs1) -> exec F (pc + List.length f1) f2 t2 xs1 o2 -> exec F pc (f1 ++ f2) (t1 ++ t2) pre o2.
  Proof.
    intros F pc f1 f2 t1 t2 pre xs1 o2 H1 H2 code c2 s Hsk. rewrite <- app_assoc in Hsk.
    eapply runs_seq; [exact (H1 code (f2 ++ c2) s Hsk)|]. apply (H2 code c2 s). apply skipn_more with (a := f1). exact Hsk.
  Qed.

  Lemma exec_seq_fail : forall F pc f1 f2 t1 pre k, exec F pc f1 t1 pre (OFail k) -> exec F pc (f1 ++ f2) t1 pre (OFail k).
  Proof.
    intros F pc f1 f2 t1 pre k H1 code c2 s Hsk. rewrite <- app_assoc in Hsk.
    apply runs_seq_fail. exact (H1 code (f2 ++ c2) s Hsk).
  Qed.

  Lemma exec_frame : forall F pc f t pre o pre0, exec F pc f t pre o -> exec F pc f t (pre0 ++ pre) (omap (app pre0) o).
  Proof.
    intros F pc f t pre o pre0 H code c2 s Hsk. specialize (H code c2 (rev pre0 ++ s) Hsk).
    rewrite rev_app_distr, <- app_assoc.
    destruct o as [xs|k|k]; cbn [omap] in *; try exact H. rewrite rev_app_distr, <- app_assoc. exact H.
  Qed.

  Lemma exec_instr : forall X F pc o tail pre (m : M X) (k : X -> list sval),
    (forall code c2 s g,
       vop ops orc rho pool (vm_run ops orc rho pool None F) code
           (fun r s => vmloop ops orc rho pool (vm_run ops orc rho pool None F) code g r s None) o (tail ++ c2) (rev pre ++ s) =
       mbind m (fun x => vmloop ops orc rho pool (vm_run ops orc rho pool None F) code g c2 (rev (k x) ++ s) None)) ->
    exec F pc (op_byte o :: tail) (fst m) pre (omap k (snd m)).
  Proof.
    intros X F pc o tail pre m k H code c2 s _. rewrite omap_omap.
    apply (runs_instr _ code X o tail c2 _ m (fun x => rev (k x) ++ s)). apply H.
  Qed.

  Lemma exec_pure_instr : forall F pc o tail pre post,
    (forall code c2 s g,
       vop ops orc rho pool (vm_run ops orc rho pool None F) code
           (fun r s => vmloop ops orc rho pool (vm_run ops orc rho pool None F) code g r s None) o (tail ++ c2) (rev pre ++ s) =
       vmloop ops orc rho pool (vm_run ops orc rho pool None F) code g c2 (rev post ++ s) None) ->
    exec F pc (op_byte o :: tail) [] pre (OVal post).
  Proof.
    intros F pc o tail pre post H. apply (exec_instr unit F pc o tail pre (ret tt) (fun _ => post)).
    intros code c2 s g. rewrite mbind_ret_l. apply H.
  Qed.

  Lemma exec_const : forall F pc i v, nth_error pool i = Some (CVal v) ->
    exec F pc (op_byte OP_CONST :: b16 (N.of_nat i)) [] [] (OVal [SV v]).
  Proof.
    intros F pc i v H. apply exec_pure_instr. intros code c2 s g. cbn [vop].
    rewrite (read_const_b16 _ _ _ _ H), mbind_ret_l. reflexivity.
  Qed.

  Lemma exec_thunk : forall F pc i body rt, nth_error pool i = Some (CThunk body rt) ->
    exec F pc (op_byte OP_CONST :: b16 (N.of_nat i)) [] [] (OVal [STh body rt]).
  Proof.
    intros F pc i body rt H. apply exec_pure_instr. intros code c2 s g. cbn [vop].
    rewrite (read_const_b16 _ _ _ _ H), mbind_ret_l. reflexivity.
  Qed.

  Lemma exec_load : forall F pc i nm v, nth_error pool i = Some (CName nm) -> assoc nm rho = Some v ->
    exec F pc (op_byte OP_LOAD :: b16 (N.of_nat i)) [] [] (OVal [SV v]).
  Proof.
    intros F pc i nm v H Ha. apply exec_pure_instr. intros code c2 s g. cbn [vop].
    rewrite (read_const_b16 _ _ _ _ H), mbind_ret_l, Ha. reflexivity.
  Qed.

  Lemma exec_jump : forall F pc tgt junk, tgt = (pc + List.length (op_byte OP_JUMP :: b16 (N.of_nat tgt) ++ junk))%nat ->
    exec F pc (op_byte OP_JUMP :: b16 (N.of_nat tgt) ++ junk) [] [] (OVal []).
  Proof.
    intros F pc tgt junk Ht code c2 s Hsk. pose proof (skipn_more _ _ _ _ Hsk) as Hs2. rewrite <- Ht in Hs2.
    apply (runs_instr _ code unit OP_JUMP _ c2 _ (ret tt) (fun _ => s)). intros g. cbn [vop].
    rewrite <- app_assoc, read16_b16, !mbind_ret_l, Nat2N.id, Hs2. reflexivity.
  Qed.

  Lemma exec_if_true : forall F pc tgt, exec F pc (op_byte OP_IF_TRUE :: b16 tgt) [] [SV (VBool true)] (OVal []).
  Proof.
    intros F pc tgt. apply exec_pure_instr. intros code c2 s g. cbn [vop rev app].
    rewrite read16_b16, mbind_ret_l, pop_val_SV, mbind_ret_l. cbn [as_bool]. rewrite mbind_ret_l. reflexivity.
  Qed.

  Lemma exec_if_false : forall F pc tgt junk,
    tgt = (pc + List.length (op_byte OP_IF_TRUE :: b16 (N.of_nat tgt) ++ junk))%nat ->
    exec F pc (op_byte OP_IF_TRUE :: b16 (N.of_nat tgt) ++ junk) [] [SV (VBool false)] (OVal []).
  Proof.
    intros F pc tgt junk Ht code c2 s Hsk. pose proof (skipn_more _ _ _ _ Hsk) as Hs2. rewrite <- Ht in Hs2.
    apply (runs_instr _ code unit OP_IF_TRUE _ c2 _ (ret tt) (fun _ => s)). intros g. cbn [vop rev app].
    rewrite <- app_assoc, read16_b16, mbind_ret_l, pop_val_SV, mbind_ret_l. cbn [as_bool].
    rewrite !mbind_ret_l, Nat2N.id, Hs2. reflexivity.
  Qed.

  Lemma exec_new_list : forall F pc i e vs, nth_error pool i = Some (CType (TList e)) ->
    exec F pc (op_byte OP_NEW_LIST :: b16 (N.of_nat i) ++ b16 (N.of_nat (List.length vs))) [] (map SV vs)
         (OVal [SV (VList (TList e) vs)]).
  Proof.
    intros F pc i e vs H. apply exec_pure_instr. intros code c2 s g. cbn [vop].
    rewrite <- app_assoc, (read_const_b16 _ _ _ _ H). mret. rewrite read16_b16. mret.
    rewrite Nat2N.id. rewrite <- (map_length SV vs), pop_n_rev. mret. rewrite vals_of_SV. mret. reflexivity.
  Qed.

  Lemma exec_new_map : forall F pc i kt vt vs sz, nth_error pool i = Some (CType (TMap kt vt)) ->
    List.length vs = (2 * sz)%nat ->
    exec F pc (op_byte OP_NEW_MAP :: b16 (N.of_nat i) ++ b16 (N.of_nat sz)) (fst (vm_entries ops vs [])) (map SV vs)
         (omap (fun en => [SV (VMap (TMap kt vt) en)]) (snd (vm_entries ops vs []))).
  Proof.
    intros F pc i kt vt vs sz H Hl. apply exec_instr. intros code c2 s g. cbn [vop].
    rewrite <- app_assoc, (read_const_b16 _ _ _ _ H). mret. rewrite read16_b16. mret.
    rewrite Nat2N.id, <- Hl. rewrite <- (map_length SV vs), pop_n_rev. mret. rewrite vals_of_SV. mret. reflexivity.
  Qed.

  Lemma exec_new_obj : forall F pc i fs vs, nth_error pool i = Some (CType (TObj fs)) -> len fs = List.length vs ->
    exec F pc (op_byte OP_NEW_OBJ :: b16 (N.of_nat i)) [] (map SV vs) (OVal [SV (VObj (TObj fs) vs)]).
  Proof.
    intros F pc i fs vs H Hl. apply exec_pure_instr. intros code c2 s g. cbn [vop].
    rewrite (read_const_b16 _ _ _ _ H). mret.
    rewrite Hl, <- (map_length SV vs), pop_n_rev. mret. rewrite vals_of_SV. mret. reflexivity.
  Qed.

  Lemma exec_list_load : forall F pc iv ty vs,
    exec F pc [op_byte OP_LIST_LOAD] (fst (list_load_m ops iv vs)) [SV (VList ty vs); SV iv]
         (omap (fun e => [SV e]) (snd (list_load_m ops iv vs))).
  Proof.
    intros F pc iv ty vs. apply (exec_instr _ F pc OP_LIST_LOAD []). intros code c2 s g. cbn [vop app rev].
    rewrite pop_val_SV. mret. unfold list_load_m.
    destruct iv; try reflexivity. cbn [as_num]. rewrite !mbind_ret_l. cbv beta iota. rewrite pop_val_SV. mret. cbn [as_list].
    mret.
    destruct (Z.ltb (to_i64 ops b) 0 || Z.leb (Z.of_nat (len vs)) (to_i64 ops b)); [reflexivity|].
    destruct (nth_error vs (Z.to_nat (to_i64 ops b))); [rewrite mbind_ret_l|]; reflexivity.
  Qed.

  Lemma exec_map_load : forall F pc kv ty kvs,
    exec F pc [op_byte OP_MAP_LOAD] (fst (map_load_m ops kv kvs)) [SV (VMap ty kvs); SV kv]
         (omap (fun e => [SV e]) (snd (map_load_m ops kv kvs))).
  Proof.
    intros F pc kv ty kvs. apply (exec_instr _ F pc OP_MAP_LOAD []). intros code c2 s g. cbn [vop app rev].
    rewrite pop_val_SV. mret. rewrite pop_val_SV. mret. cbn [as_map].
    mret. unfold map_load_m. rewrite mbind_assoc.
    destruct (key_of ops kv) as [tk [kk|kf|kf]]; try reflexivity.
    rewrite !mbind_val. f_equal.
    destruct (kget kk kvs); [rewrite mbind_ret_l|]; reflexivity.
  Qed.

  Lemma exec_obj_load : forall F pc idx i nm ov, nth_error pool i = Some (CName nm) ->
    exec F pc (op_byte OP_OBJ_LOAD :: b16 (N.of_nat idx) ++ b16 (N.of_nat i)) (fst (member_m ov idx nm)) [SV ov]
         (omap (fun e => [SV e]) (snd (member_m ov idx nm))).
  Proof.
    intros F pc idx i nm ov Hp. apply exec_instr. intros code c2 s g. cbn [vop rev app].
    rewrite <- app_assoc, read16_b16. mret. rewrite (read_const_b16 _ _ _ _ Hp). mret.
    rewrite pop_val_SV. mret. rewrite Nat2N.id. unfold member_m.
    destruct ov; try reflexivity.
    destruct (obj_load t vs idx nm); [rewrite mbind_ret_l|]; reflexivity.
  Qed.

  Lemma exec_call_by_value : forall F pc i sg vs, nth_error pool i = Some (CFun sg) ->
    exec F pc (op_byte OP_CALL_BY_VALUE :: b16 (N.of_nat i) ++ [N.of_nat (List.length vs)]) (fst (apply_strict ops orc sg vs))
         (map SV vs) (omap (fun e => [SV e]) (snd (apply_strict ops orc sg vs))).
  Proof.
    intros F pc i sg vs Hp. apply exec_instr. intros code c2 s g. cbn [vop].
    rewrite <- app_assoc, (read_const_b16 _ _ _ _ Hp). mret. cbn [app read8].
    mret. rewrite Nat2N.id, <- (map_length SV vs), pop_n_rev. mret. rewrite vals_of_SV. mret. reflexivity.
  Qed.

  Definition lazy_m (F : nat) (sg : fsig) (xs : list sval) : M val :=
    let^ ths := mmapM (thunk_of (vm_run ops orc rho pool None F)) xs in lazy_call sg ths.

  Lemma exec_call_by_need : forall F pc i sg xs, nth_error pool i = Some (CFun sg) ->
    exec F pc (op_byte OP_CALL_BY_NEED :: b16 (N.of_nat i) ++ [N.of_nat (List.length xs)]) (fst (lazy_m F sg xs)) xs
         (omap (fun e => [SV e]) (snd (lazy_m F sg xs))).
  Proof.
    intros F pc i sg xs Hp. apply exec_instr. intros code c2 s g. cbn [vop].
    rewrite <- app_assoc, (read_const_b16 _ _ _ _ Hp). mret. cbn [app read8].
    mret. rewrite Nat2N.id, pop_n_rev. mret. unfold lazy_m. rewrite mbind_assoc. reflexivity.
  Qed.

  Definition dyn_m (fv : val) (vs : list val) : M val :=
    match fv with
    | VFun (TFun _ ps rt) name lz =>
        if lz then fault XNil else apply_strict ops orc (mkSig name ps rt false) vs
    | _ => fault XTypeConf
    end.

  Lemma exec_dynamic_call : forall F pc fv vs,
    exec F pc [op_byte OP_DYNAMIC_CALL; N.of_nat (List.length vs)] (fst (dyn_m fv vs)) (SV fv :: map SV vs)
         (omap (fun e => [SV e]) (snd (dyn_m fv vs))).
  Proof.
    intros F pc fv vs. apply (exec_instr _ F pc OP_DYNAMIC_CALL [_]). intros code c2 s g. cbn [vop app read8 rev].
    mret. rewrite <- app_assoc. cbn [app].
    rewrite Nat2N.id, <- (map_length SV vs), pop_n_rev. mret. rewrite vals_of_SV. mret.
    rewrite pop_val_SV. mret. unfold dyn_m.
    destruct fv; try reflexivity. destruct t; try reflexivity. destruct lazy; reflexivity.
  Qed.

  Lemma exec_intrinsic : forall F pc o bf vs, intrinsic_sem o = Some (bf, List.length vs) ->
    exec F pc [op_byte o] (fst (bsem ops orc bf vs)) (map SV vs) (omap (fun e => [SV e]) (snd (bsem ops orc bf vs))).
  Proof.
    intros F pc o bf vs Hi.
    destruct (add_num_dec o) as [Hd|Hd].
    - subst o. cbn in Hi. inversion Hi as [[Hb Hl]]. destruct vs as [|v [|? ?]]; try discriminate Hl. subst bf.
      apply (exec_pure_instr F pc OP_ADD_NUM [] [SV v] [SV v]). intros code c2 s g. reflexivity.
    - apply exec_instr. intros code c2 s g. rewrite (vop_intrinsic _ _ _ _ _ _ _ _ _ _ _ _ Hi Hd).
      rewrite <- (map_length SV vs), pop_n_rev. mret. rewrite vals_of_SV. mret. reflexivity.
  Qed.

  Lemma exec_run : forall F frag t o, exec F 0 frag t [] (omap (fun v => [SV v]) o) -> is_fault o = false ->
    vm_run ops orc rho pool None (S F) (frag ++ [op_byte OP_RETURN]) = (t, o).
  Proof.
    intros F frag t o He Hnf. rewrite vm_run_S.
    specialize (He (frag ++ [op_byte OP_RETURN]) [op_byte OP_RETURN] [] eq_refl).
    set (g := (4 * S (len (frag ++ [op_byte OP_RETURN])))%nat).
    assert (Hg : (List.length frag + 1 <= g)%nat).
    { unfold g, len. rewrite app_length. cbn [List.length]. lia. }
    specialize (He g ltac:(lia)). cbn [rev app] in He. destruct o as [v|k|k]; cbn [omap] in He.
    - destruct He as [g' [Hg' E]]. rewrite E. cbn [rev app].
      destruct g' as [|g']; [lia|]. rewrite instr_return. unfold tpre, ret. cbn. rewrite app_nil_r. reflexivity.
    - exact He.
    - discriminate.
  Qed.

  (* unless [m] faults, [frag] at [pc] does to the stack what [m] computes: same trace, and [k] of its value on top
     of [pre]; from some thunk fuel [F] on, since a deferred argument is evaluated with the evaluator's fuel *)
  Definition simulates (pc : nat) (frag : list N) (pre : list sval) {X} (m : M X) (k : X -> list sval) : Prop :=
    is_fault (snd m) = false -> eventually (fun F => exec F pc frag (fst m) pre (omap k (snd m))).

  Lemma simulates_exec : forall X pc frag pre (m : M X) k,
    (forall F, exec F pc frag (fst m) pre (omap k (snd m))) -> simulates pc frag pre m k.
  Proof. intros X pc frag pre m k H _. apply ev_all. exact H. Qed.

  Lemma simulates_fault : forall X pc frag pre (m : M X) k, is_fault (snd m) = true -> simulates pc frag pre m k.
  Proof. intros X pc frag pre m k E Hnf. congruence. Qed.

  Lemma simulates_at : forall X pc pc' frag pre (m : M X) k, simulates pc' frag pre m k -> pc = pc' -> simulates pc frag pre m k.
  Proof. intros X pc pc' frag pre m k H ->. exact H. Qed.

  Lemma simulates_nf : forall X pc frag pre (m m' : M X) k,
    (is_fault (snd m') = false -> m' = m) -> simulates pc frag pre m k -> simulates pc frag pre m' k.
  Proof. intros X pc frag pre m m' k E H Hnf. pose proof (E Hnf) as Em. subst m'. exact (H Hnf). Qed.

  Lemma simulates_bind : forall X Y pc f1 f2 pre (m : M X) (m2 : X -> M Y) k1 k2,
    simulates pc f1 pre m k1 -> (forall t x, m = (t, OVal x) -> simulates (pc + List.length f1) f2 (k1 x) (m2 x) k2) ->
    simulates pc (f1 ++ f2) pre (mbind m m2) k2.
  Proof.
    intros X Y pc f1 f2 pre [t [x|kf|kf]] m2 k1 k2 H1 H2 Hnf.
    - rewrite mbind_val in *. unfold tpre in *. cbn [fst snd] in *.
      refine (ev_mono _ _ _ (ev_and _ _ (H1 eq_refl) (H2 t x eq_refl Hnf))). intros F [HA HB].
      cbn [fst snd omap] in HA. exact (exec_seq _ _ _ _ _ _ _ _ _ HA HB).
    - refine (ev_mono _ _ _ (H1 eq_refl)). intros F HA. apply exec_seq_fail. exact HA.
    - discriminate Hnf.
  Qed.

  Lemma simulates_map : forall X Y pc frag pre (m : M X) (g : X -> Y) k,
    simulates pc frag pre m (fun x => k (g x)) -> simulates pc frag pre (mbind m (fun x => ret (g x))) k.
  Proof. intros X Y pc frag pre [t [x|kf|kf]] g k H Hnf; cbn in *; rewrite ?app_nil_r; exact (H Hnf). Qed.

  Lemma simulates_frame : forall X pc frag pre (m : M X) k, simulates pc frag [] m k -> simulates pc frag pre m (fun x => pre ++ k x).
  Proof.
    intros X pc frag pre m k H Hnf. refine (ev_mono _ _ _ (H Hnf)). intros F HA.
    pose proof (exec_frame _ _ _ _ _ _ pre HA) as HB. rewrite app_nil_r, omap_omap in HB. exact HB.
  Qed.

  Lemma simulates_before : forall X pc f1 f2 pre mid (m : M X) k,
    (forall F, exec F pc f1 [] pre (OVal mid)) -> simulates (pc + List.length f1) f2 mid m k -> simulates pc (f1 ++ f2) pre m k.
  Proof.
    intros X pc f1 f2 pre mid m k H1 H2 Hnf. refine (ev_mono _ _ _ (H2 Hnf)). intros F HB.
    rewrite <- (app_nil_l (fst m)). eapply exec_seq; [apply H1|exact HB].
  Qed.

  Lemma simulates_after : forall X pc f1 f2 pre (m : M X) k k',
    simulates pc f1 pre m k -> (forall t x, m = (t, OVal x) -> forall F, exec F (pc + List.length f1) f2 [] (k x) (OVal (k' x))) ->
    simulates pc (f1 ++ f2) pre m k'.
  Proof.
    intros X pc f1 f2 pre [t [x|kf|kf]] k k' H1 H2 Hnf; [| |discriminate Hnf];
      refine (ev_mono _ _ _ (H1 eq_refl)); intros F HA; cbn [fst snd omap] in *.
    - rewrite <- (app_nil_r t). eapply exec_seq; [exact HA|exact (H2 t x eq_refl F)].
    - apply exec_seq_fail. exact HA.
  Qed.
End Exec.

(* The evaluator computes the key of each entry as it goes, the VM once all keys and values are on the stack: the
   same unless a key cannot be computed, which is a fault. *)
Lemma map_go_flat : forall ops g kvs acc, is_fault (snd (map_go ops g kvs acc)) = false ->
  map_go ops g kvs acc = mbind (mmapM g (flatten kvs)) (fun vs => vm_entries ops vs acc).
Proof.
  intros ops g. induction kvs as [|[k v] r IH]; intros acc Hnf.
  - reflexivity.
  - change (flatten ((k, v) :: r)) with (k :: v :: flatten r).
    cbn [map_go] in *. fold (map_go ops g) in *. rewrite !mmapM_cons, !mbind_assoc.
    destruct (g k) as [t1 [kv|kf|kf]]; try reflexivity.
    rewrite !mbind_val in *. unfold tpre in Hnf. cbn [snd] in Hnf. f_equal.
    destruct (key_of_cases ops kv) as [[kk Hk]|Hk]; rewrite Hk in *; [|discriminate Hnf].
    rewrite mbind_ret_l in *. rewrite !mbind_assoc.
    destruct (g v) as [t2 [vv|kf|kf]]; try reflexivity.
    rewrite !mbind_val in *. unfold tpre in Hnf. cbn [snd] in Hnf. f_equal.
    rewrite (IH _ Hnf), mbind_assoc.
    destruct (mmapM g (flatten r)) as [t3 [ys|kf|kf]]; try reflexivity.
    rewrite !mbind_val. f_equal. rewrite !mbind_ret_l. cbn [vm_entries]. rewrite Hk, mbind_ret_l. reflexivity.
Qed.

Section EvalSide.
  Variable ops : numops.
  Variable orc : oracles.
  Variable fe : fenv.
  Variable rho : venv.
  Notation eval := (eval ops orc fe rho).

  Lemma leaf_eval : forall a v f, leaf_val ops orc a = Some v -> eval (S f) a = ret v.
  Proof. intros a v f H. destruct a; try discriminate H; inversion H; reflexivity. Qed.

  (* Of the container of a subscript only that a map is not annotated as a list: the shape has [sub_op vty = Some o]
     already, so an annotation that is no list is a map. *)
  Definition kind_agrees (vty : ty) (x : val) : Prop :=
    match x with VList _ _ => ty_is_list vty = true | VMap _ _ => ty_is_list vty = false | _ => True end.
  Definition not_lazy_fun (x : val) : Prop := match x with VFun _ _ true => False | _ => True end.

  (* The annotations fit the compiler's layout (C11Proofs.awf) and the evaluator: an empty literal is annotated with
     the bottom type, because [eval] ignores its annotation while the VM pushes the pool's type; a dynamic callee is no
     lazy function; a subscript's container is of the annotated kind.  The checker never produces a dynamic call
     ([check_annot_ok]: [resolve_info] gives a key), so that clause, and the dynamic case of [sim_step], serve
     [vm_correct_annot] on annotations made by hand. *)
  Inductive annot_ok : aexpr -> Prop :=
  | G_leaf a v : leaf_val ops orc a = Some v -> annot_ok a
  | G_ident c n : annot_ok (AIdent c n)
  | G_list t es : (exists e, t = TList e) -> (es = [] -> t = TList TBot) -> Forall annot_ok es -> annot_ok (AList t es)
  | G_map t kvs : (exists k v, t = TMap k v) -> (kvs = [] -> t = TMap TBot TBot) -> Forall annot_ok (flatten kvs) ->
      annot_ok (AMap t kvs)
  | G_obj t tfs fs : t = TObj tfs -> len tfs = len fs -> Forall annot_ok (map snd fs) -> annot_ok (AObj t fs)
  | G_call c key idx ft callee args : Forall annot_ok args ->
      (String.eqb key "" = true -> annot_ok callee /\ forall f t x, eval f callee = (t, OVal x) -> not_lazy_fun x) ->
      (String.eqb key "" = false -> forall sg, lookup_fn fe key idx = Some sg -> len (s_params sg) = len args) ->
      annot_ok (ACall c key idx ft callee args)
  | G_sub c vty v i : annot_ok v -> annot_ok i -> (forall f t x, eval f v = (t, OVal x) -> kind_agrees vty x) ->
      annot_ok (ASub c vty v i)
  | G_member c oty idx o n : annot_ok o -> annot_ok (AMember c oty idx o n).

  Lemma annot_ok_inv a : annot_ok a ->
    match a with
    | AList t es => (exists e, t = TList e) /\ (es = [] -> t = TList TBot) /\ Forall annot_ok es
    | AMap t kvs => (exists k v, t = TMap k v) /\ (kvs = [] -> t = TMap TBot TBot) /\ Forall annot_ok (flatten kvs)
    | AObj t fs => (exists tfs, t = TObj tfs /\ len tfs = len fs) /\ Forall annot_ok (map snd fs)
    | ACall c key idx ft callee args => Forall annot_ok args /\
        (String.eqb key "" = true -> annot_ok callee /\ forall f t x, eval f callee = (t, OVal x) -> not_lazy_fun x) /\
        (String.eqb key "" = false -> forall sg, lookup_fn fe key idx = Some sg -> len (s_params sg) = len args)
    | ASub c vty v i => annot_ok v /\ annot_ok i /\ forall f t x, eval f v = (t, OVal x) -> kind_agrees vty x
    | AMember c oty idx o n => annot_ok o
    | _ => True
    end.
  Proof. destruct 1 as [a v Hv| | | | | | |]; [destruct a; try discriminate Hv; exact I|..]; eauto 6. Qed.
End EvalSide.

Section Main.
  Variable ops : numops.
  Variable orc : oracles.
  Variable fe : fenv.
  Variable rho : venv.
  Variable pool : list const.
  Notation eval := (eval ops orc fe rho).
  Notation aok := (annot_ok ops orc fe rho).
  Notation simulates := (simulates ops orc rho pool).
  Notation exec := (exec ops orc rho pool).

  Definition sim_at_fuel (f : nat) : Prop :=
    forall a pc pl fr p, aok a -> cshape ops orc fe a pc pl fr p -> pool_at pl p pool ->
      simulates pc fr [] (eval f a) (fun v => [SV v]).

  Section Step.
    Variable f : nat.
    Hypothesis IH : sim_at_fuel f.

    Lemma list_case : forall es pc pl fr p, Forall aok es -> cshapes ops orc fe es pc pl fr p -> pool_at pl p pool ->
      simulates pc fr [] (mmapM (eval f) es) (map SV).
    Proof.
      intros es pc pl fr p Hs Hc. revert Hs.
      induction Hc as [pc pl|x r pc pl f1 p1 f2 p2 Hx Hr IHr]; intros Hs Hp.
      - apply simulates_exec. intros F. apply exec_nil.
      - inversion Hs as [|? ? Hsx Hsr]; subst. destruct (pool_at_app _ _ _ _ Hp) as [Hp1 Hp2]. rewrite mmapM_cons.
        apply simulates_bind with (k1 := fun v => [SV v]); [exact (IH x _ _ _ _ Hsx Hx Hp1)|]. intros t y _. apply simulates_map.
        exact (simulates_frame _ _ _ _ _ _ _ [SV y] _ _ (IHr Hsr Hp2)).
    Qed.

    Lemma collect_case : forall es pc pl f1 p1 tail c (mk : list val -> val),
      Forall aok es -> cshapes ops orc fe es pc pl f1 p1 -> pool_at pl (p1 ++ [c]) pool ->
      (forall vs, List.length vs = List.length es ->
                  forall F, exec F (pc + List.length f1) tail [] (map SV vs) (OVal [SV (mk vs)])) ->
      simulates pc (f1 ++ tail) [] (mbind (mmapM (eval f) es) (fun vs => ret (mk vs))) (fun v => [SV v]).
    Proof.
      intros es pc pl f1 p1 tail c mk Hs Hc Hp Ht. apply simulates_map.
      eapply simulates_after; [exact (list_case _ _ _ _ _ Hs Hc (proj1 (pool_at_app _ _ _ _ Hp)))|].
      intros t vs Hm F. apply Ht. exact (mmapM_length _ _ _ _ _ _ Hm).
    Qed.

    Lemma strict_case : forall args pc pl f1 p1 tail pre (m : list val -> M val),
      Forall aok args -> cshapes ops orc fe args pc pl f1 p1 -> pool_at pl p1 pool ->
      (forall vs, List.length vs = List.length args ->
                  simulates (pc + List.length f1) tail (pre ++ map SV vs) (m vs) (fun e => [SV e])) ->
      simulates pc (f1 ++ tail) pre (mbind (mmapM (eval f) args) m) (fun e => [SV e]).
    Proof.
      intros args pc pl f1 p1 tail pre m Hs Hc Hp Ht.
      apply simulates_bind with (k1 := fun vs => pre ++ map SV vs);
        [exact (simulates_frame _ _ _ _ _ _ _ pre _ _ (list_case _ _ _ _ _ Hs Hc Hp))|].
      intros t vs Hm. apply Ht. exact (mmapM_length _ _ _ _ _ _ Hm).
    Qed.

    Definition branch_eval (br : aexpr + bool) : M val := match br with inl e => eval f e | inr b => ret (VBool b) end.

    Lemma branch_case : forall br pc pl fr p, on_branch aok br -> bshape ops orc fe br pc pl fr p -> pool_at pl p pool ->
      simulates pc fr [] (branch_eval br) (fun v => [SV v]).
    Proof.
      intros br pc pl fr p Hs Hb Hp. destruct Hb as [e pc pl fr p He|b pc pl]; cbn [branch_eval on_branch] in *.
      - exact (IH e _ _ _ _ Hs He Hp).
      - apply simulates_exec. intros F. apply exec_const. exact (pool_at_hd _ _ _ _ Hp).
    Qed.

    Lemma cond_case : forall x t e (K : bool -> M val) pc pl fx px ft pt fe' pe,
      aok x -> on_branch aok t -> on_branch aok e ->
      cshape ops orc fe x pc pl fx px ->
      bshape ops orc fe t (pc + List.length fx + 3) (pl + List.length px) ft pt ->
      bshape ops orc fe e (pc + List.length fx + 3 + List.length ft + 3) (pl + List.length px + List.length pt) fe' pe ->
      pool_at pl (px ++ pt ++ pe) pool ->
      (forall b, is_fault (snd (K b)) = false -> K b = branch_eval (if b then t else e)) ->
      simulates pc (cond_code pc fx ft fe') []
          (mbind (eval f x) (fun cv => mbind (as_bool cv) K)) (fun v => [SV v]).
    Proof.
      intros x t e K pc pl fx px ft pt fe' pe Hx Ht He Sx St Se Hp HK. cbv beta zeta delta [cond_code].
      destruct (pool_at_app _ _ _ _ Hp) as [Hp1 Hp23]. destruct (pool_at_app _ _ _ _ Hp23) as [Hp2 Hp3].
      apply simulates_bind with (k1 := fun v => [SV v]); [exact (IH x _ _ _ _ Hx Sx Hp1)|]. intros tx cv _.
      destruct cv; try (apply simulates_fault; reflexivity). cbn [as_bool]. rewrite mbind_ret_l.
      apply simulates_nf with (m := branch_eval (if b then t else e)); [apply HK|]. destruct b.
      - eapply simulates_before; [intros F; apply exec_if_true|].
        eapply simulates_after; [exact (branch_case _ _ _ _ _ Ht St Hp2)|].
        intros t0 v _ F. apply (exec_frame _ _ _ _ _ _ _ [] [] (OVal []) [SV v]). apply exec_jump. lens. lia.
      - rewrite (app_assoc ft), (app_assoc (_ :: b16 _)).
        eapply simulates_before; [intros F; apply exec_if_false; lens; lia|].
        eapply simulates_at; [exact (branch_case _ _ _ _ _ He Se Hp3)|]. lens. lia.
    Qed.

    Lemma recheck_bool : forall (m : M val),
      is_fault (snd (mbind m (fun bv => let^ bb := as_bool bv in ret (VBool bb)))) = false ->
      mbind m (fun bv => let^ bb := as_bool bv in ret (VBool bb)) = m.
    Proof.
      intros m. rewrite bool_operand. destruct m as [tm [[]|k|k]]; cbn; intros Hnf; try reflexivity; discriminate Hnf.
    Qed.

    Definition deferred (F : nat) (x : aexpr) (sv : sval) : Prop :=
      exists body rt, sv = STh body rt /\ m_rel nonfault (eval f x) (vm_run ops orc rho pool None F body).

    Lemma thunks_related : forall F args xs, Forall2 (deferred F) args xs ->
      exists ths, mmapM (thunk_of (vm_run ops orc rho pool None F)) xs = ret ths /\
                  Forall2 (th_rel nonfault) (map (fun x (_ : unit) => eval f x) args) ths.
    Proof.
      intros F args xs H. induction H as [|x sv args xs [body [rt [Hsv Hrel]]] _ [ths [Hm Hf]]].
      - exists []. split; [reflexivity|constructor].
      - subst sv. exists ((fun _ : unit => vm_run ops orc rho pool None F body) :: ths). split.
        + rewrite mmapM_cons. cbn [thunk_of]. rewrite mbind_ret_l, Hm, mbind_ret_l. reflexivity.
        + cbn [map]. constructor; [exact Hrel|exact Hf].
    Qed.

    Lemma thunk_rel : forall x pl fx px, aok x -> cshape ops orc fe x 0 pl fx px -> pool_at pl px pool ->
      eventually (fun F => m_rel nonfault (eval f x) (vm_run ops orc rho pool None F (fx ++ [op_byte OP_RETURN]))).
    Proof.
      intros x pl fx px Hx Sx Hp. destruct (is_fault (snd (eval f x))) eqn:Hf.
      - apply ev_all. intros F t o Heq Hq. rewrite Heq in Hf. unfold nonfault in Hq. cbn in Hf. congruence.
      - destruct (IH x _ _ _ _ Hx Sx Hp Hf) as [F0 H0].
        exists (S F0). intros F HF t o Heq _. rewrite Heq in *. cbn [fst snd] in *.
        destruct F as [|F]; [lia|]. apply exec_run; [|exact Hf]. apply (H0 F). lia.
    Qed.

    Lemma lazy_args : forall sg i args pc pl fr p, Forall aok args -> tshapes ops orc fe sg i args pc pl fr p ->
      pool_at pl p pool ->
      exists xs, List.length xs = List.length args /\
        (forall F, exec F pc fr [] [] (OVal xs)) /\ eventually (fun F => Forall2 (deferred F) args xs).
    Proof.
      intros sg i args pc pl fr p Hs Hc. revert Hs.
      induction Hc as [sg i pc pl|sg i x r pc pl fx px f2 p2 Sx Hr IHr]; intros Hs Hp.
      - exists []. split; [reflexivity|]. split; [intros F; apply exec_nil|]. apply ev_all. intros F. constructor.
      - inversion Hs as [|? ? Hsx Hsr]; subst. destruct (pool_at_app _ _ _ _ Hp) as [Hp1 Hp2].
        destruct (pool_at_cons _ _ _ _ Hp2) as [Hidx Hp3]. rewrite <- Nat.add_1_r in Hp3.
        destruct (IHr Hsr Hp3) as [xs [Hlen [Hex Hth]]].
        exists (STh (fx ++ [op_byte OP_RETURN]) (thunk_ret sg i) :: xs). split; [cbn; rewrite Hlen; reflexivity|]. split.
        + intros F. change (op_byte OP_CONST :: b16 (N.of_nat (pl + List.length px)) ++ f2)
            with ((op_byte OP_CONST :: b16 (N.of_nat (pl + List.length px))) ++ f2).
          rewrite <- (app_nil_l (@nil event)). eapply exec_seq; [apply exec_thunk; exact Hidx|].
          exact (exec_frame _ _ _ _ _ _ _ _ _ _ [_] (Hex F)).
        + refine (ev_mono _ _ _ (ev_and _ _ (thunk_rel x pl fx px Hsx Sx Hp1) Hth)). intros F [HA HB].
          constructor; [|exact HB]. eexists _, _. split; [reflexivity|exact HA].
    Qed.

    Lemma call_case : forall sg args pc pl fr p, Forall aok args ->
      ashape ops orc fe sg args pc pl fr p ->
      forall tail q, pool_at pl (p ++ q) pool ->
      (s_lazy sg = false -> forall vs, List.length vs = List.length args ->
         simulates (pc + List.length fr) tail (map SV vs) (apply_strict ops orc sg vs) (fun e => [SV e])) ->
      (s_lazy sg = true -> forall xs, List.length xs = List.length args ->
         forall F, exec F (pc + List.length fr) tail (fst (lazy_m ops orc rho pool F sg xs)) xs
                        (omap (fun e => [SV e]) (snd (lazy_m ops orc rho pool F sg xs)))) ->
      simulates pc (fr ++ tail) [] (do_call ops orc fe rho f sg args) (fun e => [SV e]).
    Proof.
      intros sg args pc pl fr p Hs Ha tail q Hp Hstrict Hlazy. apply pool_at_app in Hp. destruct Hp as [Hp _].
      unfold do_call. destruct Ha as [sg args pc pl fr p Hl Hc|sg args pc pl fr p Hl Hc]; rewrite Hl.
      - exact (strict_case _ _ _ _ _ _ [] _ Hs Hc Hp (Hstrict Hl)).
      - destruct (lazy_args _ _ _ _ _ _ _ Hs Hc Hp) as [xs [Hlen [Hex Hth]]]. intros Hnf.
        refine (ev_mono _ _ _ Hth). intros F HT.
        destruct (thunks_related F args xs HT) as [ths [Hm Hrel]].
        assert (Hlz : lazy_m ops orc rho pool F sg xs = lazy_call sg (map (fun x (_ : unit) => eval f x) args)).
        { unfold lazy_m. rewrite Hm, mbind_ret_l.
          destruct (lazy_call sg (map (fun x (_ : unit) => eval f x) args)) as [t o] eqn:E.
          exact (lazy_rel nonfault (fun _ => eq_refl) sg _ _ Hrel t o E Hnf). }
        rewrite <- (app_nil_l (fst _)). eapply exec_seq; [apply Hex|]. rewrite <- Hlz. exact (Hlazy Hl xs Hlen F).
    Qed.

    Lemma sim_step : sim_at_fuel (S f).
    Proof.
      intros a pc pl fr p Hs Hc Hp.
      destruct Hc as [a v pc pl Hv|c n pc pl|t es pc pl f1 p1 Hes|t kvs pc pl f1 p1 Hes|t fs pc pl f1 p1 Hes
                     |c key idx ft callee args pc pl f1 p1 f2 p2 Hk Hcal Hargs
                     |c key idx ft callee args sg b x t e pc pl fx px ft' pt fe' pe Hk Hlk Hcbn Hcp Sx St Se
                     |c key idx ft callee sg x pc pl f1 p1 Hk Hlk Hcbn Sx
                     |c key idx ft callee args sg o pc pl f1 p1 Hk Hlk Hcbn Hcbv Ha
                     |c key idx ft callee args sg pc pl f1 p1 Hk Hlk Hcbn Hcbv Ha
                     |c vty v i o pc pl f1 p1 f2 p2 Ho Sv Si|c oty idx o n pc pl f1 p1 So].
      - (* leaf *) rewrite (leaf_eval _ _ _ _ _ _ _ Hv). apply simulates_exec. intros F. apply exec_const. exact (pool_at_hd _ _ _ _ Hp).
      - (* ident *) rewrite eval_ident. destruct (assoc n rho) as [v|] eqn:Ha; [|apply simulates_fault; reflexivity].
        apply simulates_exec. intros F. eapply exec_load; [exact (pool_at_hd _ _ _ _ Hp)|exact Ha].
      - (* list *)
        destruct (annot_ok_inv _ _ _ _ _ Hs) as ([e ->] & Hnil & Hall).
        replace (eval (S f) (AList (TList e) es)) with (mbind (mmapM (eval f) es) (fun vs => ret (VList (TList e) vs)))
          by (rewrite eval_list; destruct es; [rewrite (Hnil eq_refl)|]; reflexivity).
        eapply collect_case; try eassumption. intros vs Hl F. unfold len. rewrite <- Hl.
        apply exec_new_list. exact (pool_at_last _ _ _ _ Hp).
      - (* map *)
        destruct (annot_ok_inv _ _ _ _ _ Hs) as ((kt & vt & ->) & Hnil & Hall).
        replace (eval (S f) (AMap (TMap kt vt) kvs))
          with (mbind (map_go ops (eval f) kvs []) (fun en => ret (VMap (TMap kt vt) en)))
          by (rewrite eval_map; destruct kvs; [rewrite (Hnil eq_refl)|]; reflexivity).
        apply simulates_map. eapply simulates_nf; [apply map_go_flat|].
        apply simulates_bind with (k1 := map SV); [exact (list_case _ _ _ _ _ Hall Hes (proj1 (pool_at_app _ _ _ _ Hp)))|].
        intros tm vs Hm. apply simulates_exec. intros F. unfold len. apply exec_new_map; [exact (pool_at_last _ _ _ _ Hp)|].
        rewrite (mmapM_length _ _ _ _ _ _ Hm). apply flatten_len.
      - (* obj *)
        destruct (annot_ok_inv _ _ _ _ _ Hs) as ((tfs & -> & Hlen) & Hall).
        replace (eval (S f) (AObj (TObj tfs) fs))
          with (mbind (mmapM (eval f) (map snd fs)) (fun vs => ret (VObj (TObj tfs) vs))).
        2:{ rewrite eval_obj, <- mmapM_map. destruct fs; [|reflexivity]. destruct tfs; [reflexivity|discriminate Hlen]. }
        eapply collect_case; try eassumption. intros vs Hl F.
        apply exec_new_obj; [exact (pool_at_last _ _ _ _ Hp)|]. rewrite Hlen, Hl. unfold len. symmetry. apply map_length.
      - (* dynamic call *)
        destruct (annot_ok_inv _ _ _ _ _ Hs) as (Hall & Hdyn & _).
        destruct (Hdyn Hk) as [Hcs Hnl]. destruct (pool_at_app _ _ _ _ Hp) as [Hp1 Hp2].
        rewrite eval_call, Hk.
        apply simulates_bind with (k1 := fun v => [SV v]); [exact (IH callee _ _ _ _ Hcs Hcal Hp1)|]. intros tf fv Hev.
        pose proof (Hnl _ _ _ Hev) as Hnlf.
        destruct fv as [| | | | | | | |fty name lz]; try (apply simulates_fault; reflexivity).
        destruct fty as [| | | | | | | | | | |n ps r|]; try (apply simulates_fault; reflexivity).
        destruct lz; [contradiction|]. unfold do_call. cbn [s_lazy].
        apply (strict_case _ _ _ _ _ _ [SV (VFun (TFun n ps r) name false)] _ Hall Hargs Hp2).
        intros vs Hl. apply simulates_exec. intros F. unfold len. rewrite <- Hl. apply (exec_dynamic_call _ _ _ _ F _ (VFun (TFun n ps r) name false)).
      - (* if, and, or *)
        destruct (annot_ok_inv _ _ _ _ _ Hs) as (Hall & _).
        destruct (cond_parts_Forall _ _ _ _ _ _ Hall Hcp) as (Hx & Ht & He).
        destruct (cbn_info sg b Hcbn) as [Hb [Hcl Hl]].
        rewrite eval_call, Hk, Hlk. unfold do_call, lazy_call, apply_lazy. rewrite Hl, Hb, Hcl.
        destruct b; try discriminate Hcp; destruct args as [|a1 [|a2 [|a3 [|a4 r]]]]; try discriminate Hcp;
          injection Hcp as E1 E2 E3; subst x t e; cbn [is_lazy_builtin map].
        + eapply (cond_case a1 (inl a2) (inl a3)); try eassumption. intros [|] _; reflexivity.
        + eapply (cond_case a1 (inl a2) (inr false)); try eassumption. intros [|] Hnf; [exact (recheck_bool _ Hnf)|reflexivity].
        + eapply (cond_case a1 (inr true) (inl a2)); try eassumption. intros [|] Hnf; [reflexivity|exact (recheck_bool _ Hnf)].
      - (* not *)
        destruct (annot_ok_inv _ _ _ _ _ Hs) as (Hall & _).
        inversion Hall as [|? ? Hx _]; subst.
        destruct (cbn_info sg BNot Hcbn) as [Hb [Hcl Hl]]. cbn in Hl.
        rewrite eval_call, Hk, Hlk. unfold do_call. rewrite Hl. cbn [mmapM].
        rewrite mbind_assoc. apply simulates_bind with (k1 := fun v => [SV v]); [exact (IH x _ _ _ _ Hx Sx Hp)|]. intros tx y _.
        rewrite !mbind_ret_l. unfold apply_strict. rewrite Hb, Hcl.
        apply simulates_exec. intros F. exact (exec_intrinsic _ _ _ _ F _ OP_LOGICAL_NOT BNot [y] eq_refl).
      - (* intrinsic opcode: it takes as many operands as the call has arguments *)
        destruct (annot_ok_inv _ _ _ _ _ Hs) as (Hall & _ & Har).
        pose proof (Har Hk _ Hlk) as Hn.
        destruct (cbv_info sg o Hcbv) as [Hb [Hl [bf [Hcl Hsem]]]]. rewrite Hn in Hsem.
        rewrite eval_call, Hk, Hlk. rewrite <- (app_nil_r p1) in Hp.
        eapply call_case; try eassumption.
        + intros _ vs Hlv. unfold apply_strict. rewrite Hb, Hcl. apply simulates_exec. intros F. apply exec_intrinsic.
          rewrite Hlv. exact Hsem.
        + intros Hl'. congruence.
      - (* call *)
        destruct (annot_ok_inv _ _ _ _ _ Hs) as (Hall & _).
        rewrite eval_call, Hk, Hlk. pose proof (pool_at_last _ _ _ _ Hp) as Hidx.
        eapply call_case; try eassumption.
        + intros Hl vs Hlv. rewrite Hl. apply simulates_exec. intros F. unfold len. rewrite <- Hlv. cbn [app].
          apply exec_call_by_value. exact Hidx.
        + intros Hl xs Hlx F. rewrite Hl. unfold len. rewrite <- Hlx. cbn [app]. apply exec_call_by_need. exact Hidx.
      - (* subscript *)
        destruct (annot_ok_inv _ _ _ _ _ Hs) as (Hv & Hi & Hkind).
        destruct (pool_at_app _ _ _ _ Hp) as [Hp1 Hp2]. rewrite eval_sub.
        apply simulates_bind with (k1 := fun v => [SV v]); [exact (IH v _ _ _ _ Hv Sv Hp1)|]. intros tv x Hev. pose proof (Hkind _ _ _ Hev) as Hkx.
        unfold sub_op in Ho.
        destruct x; try (apply simulates_fault; reflexivity); cbn [kind_agrees] in Hkx; rewrite Hkx in Ho.
        + inversion Ho; subst o.
          apply simulates_bind with (k1 := fun iv => [SV (VList t vs); SV iv]);
            [exact (simulates_frame _ _ _ _ _ _ _ [SV (VList t vs)] _ _ (IH i _ _ _ _ Hi Si Hp2))|].
          intros ti iv _. apply simulates_exec. intros F. apply exec_list_load.
        + destruct (ty_is_map vty); inversion Ho; subst o.
          apply simulates_bind with (k1 := fun kv => [SV (VMap t kvs); SV kv]);
            [exact (simulates_frame _ _ _ _ _ _ _ [SV (VMap t kvs)] _ _ (IH i _ _ _ _ Hi Si Hp2))|].
          intros ti kv _. apply simulates_exec. intros F. apply exec_map_load.
      - (* member *)
        pose proof (annot_ok_inv _ _ _ _ _ Hs) as Ho.
        rewrite eval_member. apply simulates_bind with (k1 := fun v => [SV v]); [exact (IH o _ _ _ _ Ho So (proj1 (pool_at_app _ _ _ _ Hp)))|].
        intros to ov _. apply simulates_exec. intros F. apply exec_obj_load. exact (pool_at_last _ _ _ _ Hp).
    Qed.
  End Step.

  Theorem sim_all : forall f, sim_at_fuel f.
  Proof.
    induction f as [|f IHf]; [|exact (sim_step f IHf)].
    intros a pc pl fr p _ _ _. apply simulates_fault. reflexivity.
  Qed.
End Main.

Theorem vm_correct_annot : forall ops orc fe rho a code pool f t o,
  annot_ok ops orc fe rho a ->
  compile_main ops orc fe a = COk (code, pool) ->
  eval ops orc fe rho f a = (t, o) -> is_fault o = false ->
  exists g0, forall g, (g0 <= g)%nat -> vm_run ops orc rho pool None g code = (t, o).
Proof.
  intros ops orc fe rho a code pool f t o Hs Hc He Hnf. destruct (compile_main_shape _ _ _ _ _ _ Hc) as (frag & Sh & ->).
  pose proof (sim_all ops orc fe rho pool f a _ _ _ _ Hs Sh (fun i c Hi => Hi)) as HS. rewrite He in HS.
  destruct (HS Hnf) as [F0 H0].
  exists (S F0). intros g Hg. destruct g as [|F]; [lia|]. apply exec_run; [|exact Hnf]. apply (H0 F). lia.
Qed.

Lemma kind_from_type : forall x vty, has_vtype x vty = true -> kind_agrees vty x.
Proof.
  intros x vty H. unfold has_vtype in H. apply andb_true_iff in H. destruct H as [Hok Heq].
  destruct x; try exact I; cbn [kind_agrees]; cbn [val_type] in Heq.
  - cbn [val_ok] in Hok. destruct t; try (rewrite andb_false_r in Hok; discriminate).
    destruct vty; try discriminate Heq. reflexivity.
  - cbn [val_ok] in Hok. destruct t; try (rewrite andb_false_r in Hok; discriminate).
    destruct vty; try discriminate Heq. reflexivity.
Qed.

Section Discharge.
  Variable ops : numops.
  Variable orc : oracles.
  Variable fe : fenv.
  Variable G : tenv.
  Variable rho : venv.
  Variable fuel : nat.
  Variable fresh : N.
  Hypothesis fe_ok : fenv_ok fe = true.
  Hypothesis Hsig : forall sg, C01Proofs.sig_in fe sg -> C01Proofs.sig_spec ops orc sg.
  Hypothesis HG : tenv_ok G = true.
  Hypothesis Hrho : env_ok G rho.
  Hypothesis Hfr : fresh_ok fe fresh.
  Notation chk := (check fe G fuel fresh).
  Notation aok := (annot_ok ops orc fe rho).

  Lemma sub_kind v av vt : chk v = COk (av, vt) ->
    forall f t x, eval ops orc fe rho f av = (t, OVal x) -> kind_agrees vt x.
  Proof.
    intros Ev f t x Hev. apply kind_from_type.
    pose proof (C01Proofs.eval_ok ops orc fe G rho fuel fresh fe_ok Hsig HG Hrho Hfr _ _ _ Ev f) as HI.
    unfold C01Proofs.okM in HI. rewrite Hev in HI. exact (proj1 HI).
  Qed.

  Lemma check_annot_ok e a T : chk e = COk (a, T) -> aok a.
  Proof.
    intros HC.
    refine (proj1 (C05Proofs.check_ind fe G fuel fresh fe_ok HG Hfr (fun _ a _ => aok a) _ _ _ _ _ _ _ _ _ _ _ _ _ _ e a T HC));
      try (intros; eapply G_leaf; reflexivity).
    - intros p. apply G_list; [eexists; reflexivity|reflexivity|constructor].
    - intros p e0 rest a0 t0 ars H0 _ Hr. apply G_list; [eexists; reflexivity|discriminate|]. constructor; [exact H0|].
      eapply Forall2_Forall_r; [exact Hr|]. intros x ax (t & Ht & _). exact Ht.
    - intros p. apply G_map; [eexists _, _; reflexivity|reflexivity|constructor].
    - intros p k0 v0 rest ak0 kt av0 vt ars Hk _ _ Hv _ Hr. apply G_map; [eexists _, _; reflexivity|discriminate|].
      apply Forall_flatten. constructor; [split; assumption|]. eapply Forall2_Forall_r; [exact Hr|].
      intros kv akv (t1 & t2 & H1 & _ & _ & H2 & _). split; assumption.
    - intros p fs afs HF _ _. eapply G_obj; [reflexivity|unfold len; rewrite !map_length; reflexivity|].
      rewrite map_map. apply Forall_map. eapply Forall2_Forall_r; [exact HF|]. intros f z (_ & Hz & _). exact Hz.
    - intros p n t _ _. apply G_ident.
    - intros p col pn n args aargs key idx ps rt HF ER EM.
      pose proof (C05Proofs.args_ok _ _ _ HF) as Ha.
      apply G_call; [apply Forall_map; eapply Forall2_Forall_r; [exact HF|]; intros x z [Hz _]; exact Hz| |].
      + intros Hk. destruct (C01Proofs.resolve_info _ _ _ _ _ _ _ _ _ fe_ok Hfr Ha ER EM) as [Hne _]. congruence.
      + intros _ sg HL. unfold len. rewrite map_length, <- (map_length snd aargs).
        exact (C01Proofs.static_call_arity _ _ _ _ _ _ _ _ _ _ fe_ok Hfr Ha ER EM HL).
    - intros p col v i av el ai it Ev Hv _ Hi _ _. exact (G_sub _ _ _ _ _ _ _ _ Hv Hi (sub_kind _ _ _ Ev)).
    - intros p col v i av kt vt ai it Ev Hv _ Hi _ _. exact (G_sub _ _ _ _ _ _ _ _ Hv Hi (sub_kind _ _ _ Ev)).
    - intros p col o fname fpos ao fs ft idx Ho _ _ _. apply G_member. exact Ho.
  Qed.
End Discharge.

Theorem vm_correct_table : forall (ops : numops) (orc : oracles) fe G rho fuel fresh e a T code pool f t o,
  fenv_ok fe = true -> (forall sg, C01Proofs.sig_in fe sg -> C01Proofs.sig_spec ops orc sg) ->
  tenv_ok G = true -> env_ok G rho -> fresh_ok fe fresh ->
  check fe G fuel fresh e = COk (a, T) ->
  compile_main ops orc fe a = COk (code, pool) ->
  eval ops orc fe rho f a = (t, o) -> is_fault o = false ->
  exists g0, forall g, (g0 <= g)%nat -> vm_run ops orc rho pool None g code = (t, o).
Proof.
  intros ops orc fe G rho fuel fresh e a T code pool f t o Hok Hsig HG Hrho Hfr Hc Hcm He Hnf.
  eapply vm_correct_annot; try eassumption.
  exact (check_annot_ok ops orc fe G rho fuel fresh Hok Hsig HG Hrho Hfr e a T Hc).
Qed.

Theorem vm_correct : forall (ops : numops) (orc : oracles) fe G rho fuel fresh e a T code pool f t o,
  (fe = builtin_fenv \/ fe = fenv_std) ->
  tenv_ok G = true -> env_ok G rho -> fresh_ok fe fresh ->
  check fe G fuel fresh e = COk (a, T) ->
  compile_main ops orc fe a = COk (code, pool) ->
  eval ops orc fe rho f a = (t, o) -> is_fault o = false ->
  exists g0, forall g, (g0 <= g)%nat -> vm_run ops orc rho pool None g code = (t, o).
Proof.
  intros ops orc fe G rho fuel fresh e a T code pool f t o Hfe. apply vm_correct_table.
  - destruct Hfe; subst fe; [exact (proj1 C01Proofs.tables_ok)|exact (proj2 C01Proofs.tables_ok)].
  - intros sg H. exact (C01Proofs.lib_sig_spec ops orc sg (C01Proofs.table_sigs fe sg Hfe H)).
Qed.

Print Assumptions intrinsics_agree.
Print Assumptions vm_correct.
Print Assumptions only_refusal.
Print Assumptions callthread_agrees.
