(* C08 proofs.  The parser model is read through a fuel-free big-step relation [run] over judgements (expr, nud, infix
   loop, led, call, items of map and object literals): [run_step R] is one step of the parser with [R] for its recursive
   calls, and the four comma loops of the model are one relation [sep_seq], one function [sep_loop].  What the functions
   accept [run] derives, and their fuel suffices (p_expr_ret); unless they run out of fuel they return what [run] derives
   (run_fn).  The properties of accepted trees are inductions over [run], for any grammar with [gram_ok]: the operator
   table enters through [table_ok_gram_ok] alone.  Completeness builds a derivation by induction on the tree; uniqueness is completeness plus determinism of [run], for a range function that never fails. *)
From Coq Require Import List String Bool NArith ZArith Lia Arith Sorted.
From Yae Require Import Base.Sexp Model.Lexer Model.Literal Model.Cst Model.Pratt Model.PrattSpec Proofs.ListFacts Proofs.ExprInd.
Import ListNotations.
Local Open Scope Z_scope.
Local Open Scope list_scope.

Definition led_bin (l : led) (bp : Z) : option (N * Z) :=
  match l with LBinL => Some (3%N, bp) | LBinR => Some (4%N, bp - 8) | LBinN => Some (2%N, bp) | _ => None end.

Definition nud_atom (n : nud) (t : token) : option expr :=
  match n with
  | NIdent => Some (EIdent (tpos t) (t_lexeme t))
  | NTrue => Some (EBool (tpos t) true)
  | NFalse => Some (EBool (tpos t) false)
  | NNum => match num_parse (t_lexeme t) with Some _ => Some (ENum (tpos t) (t_lexeme t)) | None => None end
  | NStr => match str_value (t_lexeme t) with Some _ => Some (EStr (tpos t) (t_lexeme t)) | None => None end
  | NTime => Some (ETime (tpos t) (t_lexeme t))
  | _ => None
  end.

Definition at_close (close : option (list N)) (ts : list token) : bool :=
  match close with Some c => kind_is (peek ts) c | None => false end.

(* the index: [false] in front of an item or of the closing token [close], [true] just after an item; call arguments
   have no closing token *)
Section Seq.
  Context {A : Type} (item : list token -> A -> list token -> Prop) (close : option (list N)).
  Inductive sep_seq : bool -> list token -> list A -> list token -> Prop :=
  | S_close : forall ts (Hclose : at_close close ts = true), sep_seq false ts [] ts
  | S_item : forall ts x ts1 xs rest
      (Hopen : at_close close ts = false) (Hitem : item ts x ts1) (Hmore : sep_seq true ts1 xs rest), sep_seq false ts (x :: xs) rest
  | S_stop : forall ts (Hnocomma : kind_is (peek ts) K_COMMA = false), sep_seq true ts [] ts
  | S_comma : forall ts c ts2 xs rest
      (Hcomma : must_eat K_COMMA ts = POk (c, ts2)) (Hmore : sep_seq false ts2 xs rest), sep_seq true ts xs rest.
End Seq.

(* written as a term: [run_induction] recurses through it, and the guard check has to see that it only maps [f] over the items *)
Definition seq_map {A} (R S : list token -> A -> list token -> Prop) close
  (f : forall ts x r, R ts x r -> S ts x r) : forall b ts xs rest, sep_seq R close b ts xs rest -> sep_seq S close b ts xs rest :=
  fix G b ts xs rest q :=
    match q with
    | S_close _ _ ts Hc => S_close _ _ ts Hc
    | S_item _ _ ts x ts1 xs rest Hc Hi Hq => S_item _ _ ts x ts1 xs rest Hc (f _ _ _ Hi) (G _ _ _ _ Hq)
    | S_stop _ _ ts Hc => S_stop _ _ ts Hc
    | S_comma _ _ ts c ts2 xs rest Hc Hq => S_comma _ _ ts c ts2 xs rest Hc (G _ _ _ _ Hq)
    end.

Inductive judg :=
| JExpr (rbp : Z) (ts : list token) (e : expr) (rest : list token)
| JNud (n : nud) (bp : Z) (t : token) (ts : list token) (e : expr) (rest : list token)
| JLoop (rbp : Z) (left : expr) (ts : list token) (e : expr) (rest : list token)
| JLed (l : led) (bp : Z) (left : expr) (t : token) (ts : list token) (e : expr) (rest : list token)
| JCall (callee : expr) (lp : token) (ts : list token) (e : expr) (rest : list token)
| JPair (ts : list token) (kv : expr * expr) (rest : list token)
| JField (ts : list token) (f : list N * expr) (rest : list token).

Section Run.
  Variable g : grammar.
  (* the parser is [run g range]; uniqueness derives both trees with a range function that never fails *)
  Variable rng : pos -> pos -> pres pos.

  Section Step.
  Variable R : judg -> Prop.
  Definition elem_of ts e r := R (JExpr 0 ts e r).
  Definition pair_of ts kv r := R (JPair ts kv r).
  Definition field_of ts f r := R (JField ts f r).

  Inductive run_step : judg -> Prop :=
  | R_expr : forall rbp ts bp n lft ts2 e rest
      (Hget : get (t_kind (peek ts)) (g_prefix g) = Some (bp, n))
      (Hnud : R (JNud n bp (peek ts) (tl ts) lft ts2)) (Hloop : R (JLoop rbp lft ts2 e rest)),
      run_step (JExpr rbp ts e rest)
  | N_atom : forall n bp t ts e (Hatom : nud_atom n t = Some e), run_step (JNud n bp t ts e ts)
  | N_prefix : forall bp t ts e ts1 p
      (Hx : R (JExpr bp ts e ts1)) (Hspan : rng (tpos t) (expr_pos e) = POk p),
      run_step (JNud NPrefix bp t ts (EUnary p (t_lexeme t) (tpos t) e true) ts1)
  | N_group : forall bp t ts e ts1 rp ts2 p
      (Hx : R (JExpr 0 ts e ts1)) (Hrp : must_eat K_RPAREN ts1 = POk (rp, ts2)) (Hspan : rng (tpos t) (tpos rp) = POk p),
      run_step (JNud NGroup bp t ts (EGroup p e) ts2)
  | N_obj : forall bp t ts fs ts1 rb ts2 p
      (Hfs : sep_seq field_of (Some K_RBRACE) false ts fs ts1) (Hrb : must_eat K_RBRACE ts1 = POk (rb, ts2))
      (Hspan : rng (tpos t) (tpos rb) = POk p),
      run_step (JNud NObj bp t ts (EObj p fs) ts2)
  | N_map_empty : forall bp t ts c ts1 rb ts2 p
      (Hcol : must_eat K_COLON ts = POk (c, ts1)) (Hrb : must_eat K_RBRACKET ts1 = POk (rb, ts2))
      (Hspan : rng (tpos t) (tpos rb) = POk p),
      run_step (JNud NListMap bp t ts (EMap p []) ts2)
  | N_list_empty : forall bp t ts rb ts1 p
      (Hnocol : kind_is (peek ts) K_COLON = false) (Hrb : must_eat K_RBRACKET ts = POk (rb, ts1)) (Hspan : rng (tpos t) (tpos rb) = POk p),
      run_step (JNud NListMap bp t ts (EList p []) ts1)
  | N_list : forall bp t ts e ts1 es ts2 rb ts3 p
      (Hnocol : kind_is (peek ts) K_COLON = false) (Hopen : kind_is (peek ts) K_RBRACKET = false)
      (Hx : R (JExpr 0 ts e ts1)) (Hnocol1 : kind_is (peek ts1) K_COLON = false)
      (Hes : sep_seq elem_of (Some K_RBRACKET) true ts1 es ts2)
      (Hrb : must_eat K_RBRACKET ts2 = POk (rb, ts3)) (Hspan : rng (tpos t) (tpos rb) = POk p),
      run_step (JNud NListMap bp t ts (EList p (e :: es)) ts3)
  | N_map : forall bp t ts k ts1 c ts2 v ts3 kvs ts4 rb ts5 p
      (Hnocol : kind_is (peek ts) K_COLON = false) (Hopen : kind_is (peek ts) K_RBRACKET = false)
      (Hk : R (JExpr 0 ts k ts1)) (Hcol : must_eat K_COLON ts1 = POk (c, ts2)) (Hv : R (JExpr 0 ts2 v ts3))
      (Hkvs : sep_seq pair_of (Some K_RBRACKET) true ts3 kvs ts4)
      (Hrb : must_eat K_RBRACKET ts4 = POk (rb, ts5)) (Hspan : rng (tpos t) (tpos rb) = POk p),
      run_step (JNud NListMap bp t ts (EMap p ((k, v) :: kvs)) ts5)
  | I_pair : forall ts k ts1 c ts2 v ts3
      (Hk : R (JExpr 0 ts k ts1)) (Hcol : must_eat K_COLON ts1 = POk (c, ts2)) (Hv : R (JExpr 0 ts2 v ts3)),
      run_step (JPair ts (k, v) ts3)
  | I_field : forall ts nm ts1 c ts2 v ts3
      (Hnm : must_eat K_SYM ts = POk (nm, ts1)) (Hcol : must_eat K_COLON ts1 = POk (c, ts2))
      (Hv : R (JExpr 0 ts2 v ts3)),
      run_step (JField ts (t_lexeme nm, v) ts3)
  | C_empty : forall callee lp ts rp ts1 p
      (Hrp : must_eat K_RPAREN ts = POk (rp, ts1)) (Hspan : rng (expr_pos callee) (tpos rp) = POk p),
      run_step (JCall callee lp ts (ECall p (tcol lp) callee []) ts1)
  | C_args : forall callee lp ts args ts1 rp ts2 p
      (Hnorp : kind_is (peek ts) K_RPAREN = false) (Hargs : sep_seq elem_of None false ts args ts1)
      (Hrp : must_eat K_RPAREN ts1 = POk (rp, ts2)) (Hspan : rng (expr_pos callee) (tpos rp) = POk p),
      run_step (JCall callee lp ts (ECall p (tcol lp) callee args) ts2)
  | L_bin : forall l bp left t ts fx r x ts1 p
      (Hbin : led_bin l bp = Some (fx, r)) (Hx : R (JExpr r ts x ts1))
      (Hspan : rng (expr_pos left) (expr_pos x) = POk p),
      run_step (JLed l bp left t ts (EBinary p (t_lexeme t) (tpos t) fx left x) ts1)
  | L_postfix : forall bp left t ts p (Hspan : rng (expr_pos left) (tpos t) = POk p),
      run_step (JLed LPostfix bp left t ts (EUnary p (t_lexeme t) (tpos t) left false) ts)
  | L_question : forall bp left t ts m ts1 c ts2 r ts3 p
      (Hm : R (JExpr 0 ts m ts1)) (Hcol : must_eat K_COLON ts1 = POk (c, ts2)) (Hr : R (JExpr (bp - 8) ts2 r ts3))
      (Hspan : rng (expr_pos left) (expr_pos r) = POk p),
      run_step (JLed LQuestion bp left t ts (ETernary p (t_lexeme t) (tpos t) left m r) ts3)
  | L_call : forall bp left t ts e rest (Hcall : R (JCall left t ts e rest)), run_step (JLed LCall bp left t ts e rest)
  | L_sub : forall bp left t ts i ts1 rb ts2 p
      (Hi : R (JExpr 0 ts i ts1)) (Hrb : must_eat K_RBRACKET ts1 = POk (rb, ts2))
      (Hspan : rng (expr_pos left) (tpos rb) = POk p),
      run_step (JLed LSubscript bp left t ts (ESub p (tcol t) left i) ts2)
  | L_dot : forall bp left t ts p
      (Hspan : rng (expr_pos left) (tpos (peek ts)) = POk p) (Hnolp : kind_is (peek (tl ts)) K_LPAREN = false),
      run_step (JLed LDot bp left t ts (EMember p (tcol t) left (t_lexeme (peek ts)) (tpos (peek ts))) (tl ts))
  | L_dotcall : forall bp left t ts p lp ts2 e rest
      (Hspan : rng (expr_pos left) (tpos (peek ts)) = POk p) (Hlp : must_eat K_LPAREN (tl ts) = POk (lp, ts2))
      (Hcall : R (JCall (EMember p (tcol t) left (t_lexeme (peek ts)) (tpos (peek ts))) lp ts2 e rest)),
      run_step (JLed LDot bp left t ts e rest)
  | Lp_stop : forall rbp left ts (Hstop : Z.ltb rbp (infix_lbp g (peek ts)) = false), run_step (JLoop rbp left ts left ts)
  | Lp_step : forall rbp left ts bp l left' ts2 e rest
      (Hlt : Z.ltb rbp (infix_lbp g (peek ts)) = true) (Hget : get (t_kind (peek ts)) (g_infix g) = Some (bp, l))
      (Hled : R (JLed l bp left (peek ts) (tl ts) left' ts2)) (Hok : infix_n_ok left' = true)
      (Hloop : R (JLoop rbp left' ts2 e rest)),
      run_step (JLoop rbp left ts e rest).
  End Step.


  Inductive run (j : judg) : Prop := Run : run_step run j -> run j.

  Lemma run_induction : forall P : judg -> Prop,
    (forall j, run_step (fun j => run j /\ P j) j -> P j) -> forall j, run j -> P j.
  Proof.
    intros P HP. fix F 2. intros j [s]. apply HP.
    destruct s; econstructor; try eassumption; try (split; [eassumption | apply F; eassumption]).
    all: (eapply seq_map; [|eassumption]); intros ts' x r h; (split; [exact h | apply F; exact h]).
  Qed.
End Run.
Notation runr g := (run g range).

Ltac inv H := inversion H; subst; clear H.

Lemma eat_peek_tl : forall ts, eat ts = (peek ts, tl ts).
Proof. intros [|t r]; reflexivity. Qed.

Lemma must_eat_eq : forall k ts, must_eat k ts = if kind_is (peek ts) k then POk (peek ts, tl ts) else PErr.
Proof. intros k ts. unfold must_eat. rewrite eat_peek_tl. reflexivity. Qed.

Lemma try_must : forall k ts p, try_eat k ts = Some p <-> must_eat k ts = POk p.
Proof.
  intros k ts p. rewrite must_eat_eq. unfold try_eat. rewrite eat_peek_tl.
  destruct (kind_is (peek ts) k); split; congruence.
Qed.

Lemma try_none : forall k ts, try_eat k ts = None <-> kind_is (peek ts) k = false.
Proof. intros k ts. unfold try_eat. destruct (kind_is (peek ts) k); split; congruence. Qed.

Lemma try_eat_some : forall {k ts p}, must_eat k ts = POk p -> try_eat k ts = Some p.
Proof. intros k ts p. apply try_must. Qed.

Lemma try_eat_none : forall {k ts}, kind_is (peek ts) k = false -> try_eat k ts = None.
Proof. intros k ts. apply try_none. Qed.

Lemma must_eat_inv : forall k ts t r, must_eat k ts = POk (t, r) -> t = peek ts /\ r = tl ts /\ kind_is (peek ts) k = true.
Proof. intros k ts t r H. rewrite must_eat_eq in H. destruct (kind_is (peek ts) k); inv H. auto. Qed.

Lemma must_eat_kind_is : forall k ts p, must_eat k ts = POk p -> kind_is (peek ts) k = true.
Proof. intros k ts [t r] H. apply (must_eat_inv _ _ _ _ H). Qed.

(* [peek []] is a token of kind K_EOF, hence the side condition *)
Lemma must_eat_kind : forall k ts t r,
  must_eat k ts = POk (t, r) -> list_eqb k K_EOF = false -> ts = t :: r /\ is_kind k t.
Proof.
  intros k ts t r H Hk. apply must_eat_inv in H. destruct H as [-> [-> H]]. apply list_eqb_eq in H.
  destruct ts as [|t0 r0]; cbn [peek tl] in *.
  - subst k. discriminate.
  - split; [reflexivity|]. split; [exact H|]. unfold is_eof. rewrite H. exact Hk.
Qed.

Lemma tpos_noeof : forall t, is_eof t = false -> tpos t = tok_pos t.
Proof. intros t H. unfold tpos. rewrite H. reflexivity. Qed.

Lemma tpos_kind : forall k t, is_kind k t -> tpos t = tok_pos t.
Proof. intros k t [_ H]. exact (tpos_noeof t H). Qed.

Definition j_ts (j : judg) : list token :=
  match j with
  | JExpr _ ts _ _ | JNud _ _ _ ts _ _ | JLoop _ _ ts _ _ | JLed _ _ _ _ ts _ _ | JCall _ _ ts _ _
  | JPair ts _ _ | JField ts _ _ => ts
  end.
Definition j_rest (j : judg) : list token :=
  match j with
  | JExpr _ _ _ r | JNud _ _ _ _ _ r | JLoop _ _ _ _ r | JLed _ _ _ _ _ _ r | JCall _ _ _ _ r
  | JPair _ _ r | JField _ _ r => r
  end.

Lemma sfx_must_eat : forall k ts t r, must_eat k ts = POk (t, r) -> sfx r ts.
Proof. intros k ts t r H. apply must_eat_inv in H. destruct H as [_ [-> _]]. apply sfx_tl. Qed.

Lemma seq_sfx : forall {A} (R : list token -> A -> list token -> Prop) close,
  (forall ts x r, R ts x r -> sfx r ts) -> forall b ts xs rest, sep_seq R close b ts xs rest -> sfx rest ts.
Proof.
  intros A R close Hi b ts xs rest q. induction q; try apply sfx_refl.
  - eapply sfx_trans; [exact IHq | eapply Hi; eassumption].
  - eapply sfx_trans; [exact IHq | eapply sfx_must_eat; eassumption].
Qed.

(* every premise of a rule leaves a suffix of what it was given, and the premises of a rule chain *)
Lemma run_suffix : forall g j, runr g j -> sfx (j_rest j) (j_ts j).
Proof.
  intros g j H. induction H as [j s] using run_induction. destruct s; cbn [j_ts j_rest] in *.
  all: repeat match goal with
       | H : _ /\ sfx _ _ |- _ => destruct H as [_ H]
       | H : sep_seq _ _ _ _ _ _ |- _ => apply (seq_sfx _ _ (fun _ _ _ h => proj2 h)) in H
       | H : must_eat _ _ = POk (_, _) |- _ => apply sfx_must_eat in H
       end.
  all: repeat first [ apply sfx_refl | assumption | (eapply sfx_trans; [|eassumption]) | (eapply sfx_trans; [|apply sfx_tl]) ].
Qed.

Lemma must_eat_len : forall k ts t r, must_eat k ts = POk (t, r) -> (len r <= len ts)%nat.
Proof. intros k ts t r H. apply sfx_must_eat, sfx_len in H. exact H. Qed.

Definition eof_free (g : grammar) : Prop :=
  get K_EOF (g_prefix g) = None /\ get K_EOF (g_infix g) = None.

Lemma get_peek_cons : forall {X} (tbl : list (list N * X)) ts x,
  get K_EOF tbl = None -> get (t_kind (peek ts)) tbl = Some x -> ts = peek ts :: tl ts.
Proof. intros X tbl [|t r] x He H; [|reflexivity]. change (t_kind (peek [])) with K_EOF in H. congruence. Qed.

Lemma get_len_tl : forall {X} (tbl : list (list N * X)) ts x,
  get K_EOF tbl = None -> get (t_kind (peek ts)) tbl = Some x -> len ts = S (len (tl ts)).
Proof. intros X tbl ts x He H. rewrite (get_peek_cons _ _ _ He H) at 1. reflexivity. Qed.

Lemma run_len : forall g j, runr g j -> (len (j_rest j) <= len (j_ts j))%nat.
Proof. intros g j H. exact (sfx_len _ _ (run_suffix g j H)). Qed.

Lemma run_len_expr : forall g rbp ts e rest, eof_free g -> runr g (JExpr rbp ts e rest) -> (len rest < len ts)%nat.
Proof.
  intros g rbp ts e rest [Hp _] [s]. inv s.
  apply run_len in Hnud, Hloop. apply get_len_tl in Hget; [|exact Hp]. cbn [j_ts j_rest] in *. lia.
Qed.

Lemma run_len_pair : forall g ts kv rest, eof_free g -> runr g (JPair ts kv rest) -> (len rest < len ts)%nat.
Proof.
  intros g ts kv rest Hg [s]. inv s.
  apply (run_len_expr g _ _ _ _ Hg) in Hk. apply must_eat_len in Hcol. apply run_len in Hv. cbn [j_ts j_rest] in *. lia.
Qed.

Lemma run_len_field : forall g ts f rest, runr g (JField ts f rest) -> (len rest < len ts)%nat.
Proof.
  intros g ts f rest [s]. inv s.
  apply must_eat_kind in Hnm as [-> _]; [|reflexivity]. apply must_eat_len in Hcol. apply run_len in Hv.
  cbn [j_ts j_rest] in *. change (len (nm :: ts1)) with (S (len ts1)). lia.
Qed.

Lemma pbind_ok : forall {X Y} (r : pres X) (f : X -> pres Y) y,
  pbind r f = POk y -> exists x, r = POk x /\ f x = POk y.
Proof. intros X Y [x| |] f y H; cbn in H; try discriminate. eauto. Qed.

Lemma pbind_nf : forall {X Y} (r : pres X) (k : X -> pres Y),
  r <> PFuel -> (forall x, r = POk x -> k x <> PFuel) -> pbind r k <> PFuel.
Proof. intros X Y [x| |] k H1 H2; cbn; [apply H2; reflexivity | discriminate | exfalso; apply H1; reflexivity]. Qed.

Lemma pbind_assoc : forall {X Y Z} (r : pres X) (f : X -> pres Y) (k : Y -> pres Z),
  pbind (pbind r f) k = pbind r (fun x => pbind (f x) k).
Proof. intros X Y Z [x| |] f k; reflexivity. Qed.

Lemma must_eat_nf : forall k ts, must_eat k ts <> PFuel.
Proof. intros k ts. rewrite must_eat_eq. destruct (kind_is (peek ts) k); discriminate. Qed.

Lemma range_nf : forall a b, range a b <> PFuel.
Proof. intros a b. unfold range. destruct (Z.leb (p_idx a) (p_idx b)); discriminate. Qed.

(* one walk through the functions with this gives both that an accepted result has a derivation and that the fuel
   suffices *)
Definition ret {X} (enough : Prop) (Q : X -> Prop) (r : pres X) : Prop :=
  match r with POk x => Q x | PErr => True | PFuel => ~ enough end.

Lemma ret_ok : forall {X} (en : Prop) (Q : X -> Prop) r x, ret en Q r -> r = POk x -> Q x.
Proof. intros X en Q r x H ->. exact H. Qed.

Lemma ret_nf : forall {X} (en : Prop) (Q : X -> Prop) r, ret en Q r -> en -> r <> PFuel.
Proof. intros X en Q r H He ->. exact (H He). Qed.

Lemma ret_weaken : forall {X} (en' en : Prop) (Q Q' : X -> Prop) r,
  ret en' Q r -> (en -> en') -> (forall x, Q x -> Q' x) -> ret en Q' r.
Proof. intros X en' en Q Q' [x| |] H1 H2 H3; cbn in *; [apply H3, H1 | exact I | exact (fun h => H1 (H2 h))]. Qed.

Lemma ret_bind : forall {X Y} (en' en : Prop) (Q : X -> Prop) (Q' : Y -> Prop) r (k : X -> pres Y),
  ret en' Q r -> (en -> en') -> (forall x, Q x -> ret en Q' (k x)) -> ret en Q' (pbind r k).
Proof. intros X Y en' en Q Q' [x| |] k H1 H2 H3; cbn in *; [apply H3, H1 | exact I | exact (fun h => H1 (H2 h))]. Qed.

Lemma ret_total : forall {X Y} (en : Prop) (Q : Y -> Prop) (r : pres X) (k : X -> pres Y),
  r <> PFuel -> (forall x, r = POk x -> ret en Q (k x)) -> ret en Q (pbind r k).
Proof. intros X Y en Q [x| |] k H1 H2; cbn; [apply H2; reflexivity | exact I | congruence]. Qed.

Lemma ret_eat : forall {Y} (en : Prop) (Q : Y -> Prop) c ts (k : token * list token -> pres Y),
  (forall t ts', must_eat c ts = POk (t, ts') -> (len ts' <= len ts)%nat -> ret en Q (k (t, ts'))) ->
  ret en Q (pbind (must_eat c ts) k).
Proof.
  intros Y en Q c ts k Hk. apply ret_total; [apply must_eat_nf|]. intros [t ts'] H.
  apply Hk; [exact H | exact (must_eat_len _ _ _ _ H)].
Qed.

Lemma ret_range : forall {Y} (en : Prop) (Q : Y -> Prop) a b (k : pos -> pres Y),
  (forall p, range a b = POk p -> ret en Q (k p)) -> ret en Q (pbind (range a b) k).
Proof. intros Y en Q a b k Hk. apply ret_total; [apply range_nf | exact Hk]. Qed.

Definition sep_more {A} (loop : list token -> list A -> pres (list A * list token)) (ts : list token) (acc : list A) :=
  match try_eat K_COMMA ts with Some (_, ts2) => loop ts2 acc | None => POk (rev acc, ts) end.

(* the model keeps four loops, as the Go source does; each is this one at an item and a closing kind ([*_loop_eq]) *)
Fixpoint sep_loop {A} (item : list token -> pres (A * list token)) (close : option (list N)) (n : nat)
    (ts : list token) (acc : list A) : pres (list A * list token) :=
  match n with
  | O => PFuel
  | S m => if at_close close ts then POk (rev acc, ts) else
           let! (x, ts1) := item ts in sep_more (sep_loop item close m) ts1 (x :: acc)
  end.

Definition pair_item (rec : Z -> list token -> pres (expr * list token)) (ts : list token) :=
  let! (k, ts1) := rec 0 ts in let! (_, ts2) := must_eat K_COLON ts1 in let! (v, ts3) := rec 0 ts2 in POk ((k, v), ts3).
Definition field_item (rec : Z -> list token -> pres (expr * list token)) (ts : list token) :=
  let! (nm, ts1) := must_eat K_SYM ts in let! (_, ts2) := must_eat K_COLON ts1 in let! (v, ts3) := rec 0 ts2 in
  POk ((t_lexeme nm, v), ts3).

Lemma elems_loop_eq : forall rec n c ts acc, elems_loop rec n c ts acc = sep_loop (rec 0) (Some c) n ts acc.
Proof.
  induction n as [|n IH]; intros c ts acc; cbn [elems_loop sep_loop at_close]; [reflexivity|].
  destruct (kind_is (peek ts) c); [reflexivity|]. destruct (rec 0 ts) as [[e ts1]| |]; try reflexivity.
  cbn [pbind]. unfold sep_more. destruct (try_eat K_COMMA ts1) as [[c' ts2]|]; [apply IH | reflexivity].
Qed.

Lemma args_loop_eq : forall rec n ts acc, args_loop rec n ts acc = sep_loop (rec 0) None n ts acc.
Proof.
  induction n as [|n IH]; intros ts acc; cbn [args_loop sep_loop at_close]; [reflexivity|].
  destruct (rec 0 ts) as [[e ts1]| |]; try reflexivity.
  cbn [pbind]. unfold sep_more. destruct (try_eat K_COMMA ts1) as [[c' ts2]|]; [apply IH | reflexivity].
Qed.

Lemma pairs_loop_eq : forall rec n ts acc, pairs_loop rec n ts acc = sep_loop (pair_item rec) (Some K_RBRACKET) n ts acc.
Proof.
  induction n as [|n IH]; intros ts acc; cbn [pairs_loop sep_loop at_close]; [reflexivity|].
  destruct (kind_is (peek ts) K_RBRACKET); [reflexivity|]. unfold pair_item.
  destruct (rec 0 ts) as [[k ts1]| |]; try reflexivity. cbn [pbind].
  destruct (must_eat K_COLON ts1) as [[c ts2]| |]; try reflexivity. cbn [pbind].
  destruct (rec 0 ts2) as [[v ts3]| |]; try reflexivity. cbn [pbind].
  unfold sep_more. destruct (try_eat K_COMMA ts3) as [[c' ts4]|]; [apply IH | reflexivity].
Qed.

Lemma fields_loop_eq : forall rec n ts acc, fields_loop rec n ts acc = sep_loop (field_item rec) (Some K_RBRACE) n ts acc.
Proof.
  induction n as [|n IH]; intros ts acc; cbn [fields_loop sep_loop at_close]; [reflexivity|].
  destruct (kind_is (peek ts) K_RBRACE); [reflexivity|]. unfold field_item.
  destruct (must_eat K_SYM ts) as [[nm ts1]| |]; try reflexivity. cbn [pbind].
  destruct (must_eat K_COLON ts1) as [[c ts2]| |]; try reflexivity. cbn [pbind].
  destruct (rec 0 ts2) as [[v ts3]| |]; try reflexivity. cbn [pbind].
  unfold sep_more. destruct (try_eat K_COMMA ts3) as [[c' ts4]|]; [apply IH | reflexivity].
Qed.

Definition seq_res {A} (R : list token -> A -> list token -> Prop) close b ts (acc : list A) : list A * list token -> Prop :=
  fun '(res, rest) => exists xs, res = rev acc ++ xs /\ sep_seq R close b ts xs rest.

Lemma sep_more_ret : forall {A} (R : list token -> A -> list token -> Prop) close (en : Prop) loop ts acc,
  (forall ts2, (len ts2 <= len ts)%nat -> ret en (seq_res R close false ts2 acc) (loop ts2 acc)) ->
  ret en (seq_res R close true ts acc) (sep_more loop ts acc).
Proof.
  intros A R close en loop ts acc Hl. unfold sep_more. destruct (try_eat K_COMMA ts) as [[c ts2]|] eqn:Hc.
  - apply try_must in Hc. eapply ret_weaken; [apply Hl, (must_eat_len _ _ _ _ Hc) | auto |].
    intros [res rest] (xs & -> & Hq). exists xs. split; [reflexivity | eapply S_comma; eauto].
  - exists []. rewrite app_nil_r. split; [reflexivity | apply S_stop, try_none, Hc].
Qed.

Section Fn.
  Variable g : grammar.
  Variable rec : Z -> list token -> pres (expr * list token).
  Variable B : nat.

  (* [eof_free]: that an expression consumes a token, which bounds the loops, needs the end of input to be no operator *)
  Definition fuel_for (ts : list token) : Prop := eof_free g /\ (len ts < B)%nat.
  Hypothesis Hrec : forall rbp ts, ret (fuel_for ts) (fun '(e, r) => runr g (JExpr rbp ts e r)) (rec rbp ts).

  Lemma fuel_for_le : forall ts ts', (len ts' <= len ts)%nat -> fuel_for ts -> fuel_for ts'.
  Proof. intros ts ts' H [Hg Hl]. split; [exact Hg | lia]. Qed.

  Lemma ret_rec : forall {Y} (en : Prop) (Q : Y -> Prop) rbp ts (k : expr * list token -> pres Y),
    (en -> fuel_for ts) ->
    (forall e ts', runr g (JExpr rbp ts e ts') -> (len ts' <= len ts)%nat -> ret en Q (k (e, ts'))) ->
    ret en Q (pbind (rec rbp ts) k).
  Proof.
    intros Y en Q rbp ts k He Hk. eapply ret_bind; [apply Hrec | exact He |]. intros [e ts'] H.
    apply Hk; [exact H | exact (run_len _ _ H)].
  Qed.

  Lemma sep_loop_ret : forall {A} (item : list token -> pres (A * list token)) (R : list token -> A -> list token -> Prop) close,
    (forall ts, ret (fuel_for ts) (fun '(x, r) => R ts x r) (item ts)) ->
    (forall ts x r, eof_free g -> R ts x r -> (len r < len ts)%nat) ->
    forall n ts acc, ret (fuel_for ts /\ (len ts < n)%nat) (seq_res R close false ts acc) (sep_loop item close n ts acc).
  Proof.
    intros A item R close Hi Hl. induction n as [|n IH]; intros ts acc; cbn [sep_loop]; [intros [_ H]; lia|].
    destruct (at_close close ts) eqn:Hc.
    - exists []. rewrite app_nil_r. split; [reflexivity | apply S_close; exact Hc].
    - eapply ret_bind; [apply Hi | apply proj1 |]. intros [x ts1] Hx.
      eapply ret_weaken; [apply (sep_more_ret R close (fuel_for ts /\ (len ts < S n)%nat)) | auto |].
      + intros ts2 L2. eapply ret_weaken; [apply IH | | auto].
        intros [[Hg HB] Hn]. apply (Hl _ _ _ Hg) in Hx. split; [split; [exact Hg|] |]; lia.
      + intros [res rest] (xs & -> & Hq). exists (x :: xs). split; [apply rev_cons_app | eapply S_item; eauto].
  Qed.

  (* as the model calls them, with fuel for the whole input *)
  Lemma sep_loop_full_ret : forall {A} (item : list token -> pres (A * list token)) (R : list token -> A -> list token -> Prop) close,
    (forall ts, ret (fuel_for ts) (fun '(x, r) => R ts x r) (item ts)) ->
    (forall ts x r, eof_free g -> R ts x r -> (len r < len ts)%nat) ->
    forall ts acc, ret (fuel_for ts) (seq_res R close false ts acc) (sep_loop item close (S (len ts)) ts acc).
  Proof.
    intros A item R close Hi Hl ts acc. eapply ret_weaken; [apply (sep_loop_ret item R close Hi Hl) | | auto].
    intros H. split; [exact H | lia].
  Qed.

  (* after the first item of a bracket, which [nud_fn] reads itself *)
  Lemma sep_more_full_ret : forall {A} (item : list token -> pres (A * list token)) (R : list token -> A -> list token -> Prop) close loop,
    (forall n ts acc, loop n ts acc = sep_loop item close n ts acc) ->
    (forall ts, ret (fuel_for ts) (fun '(x, r) => R ts x r) (item ts)) ->
    (forall ts x r, eof_free g -> R ts x r -> (len r < len ts)%nat) ->
    forall ts0 ts acc, (len ts <= len ts0)%nat ->
    ret (fuel_for ts0) (seq_res R close true ts acc) (sep_more (fun ts acc => loop (S (len ts)) ts acc) ts acc).
  Proof.
    intros A item R close loop Heq Hi Hl ts0 ts acc L. apply sep_more_ret. intros ts2 L2. rewrite Heq.
    eapply ret_weaken; [apply (sep_loop_full_ret item R close Hi Hl) | apply fuel_for_le; lia | auto].
  Qed.

  Lemma pair_item_ret : forall ts, ret (fuel_for ts) (fun '(kv, r) => runr g (JPair ts kv r)) (pair_item rec ts).
  Proof.
    intros ts. unfold pair_item. apply ret_rec; [auto|]. intros k ts1 Hk L1. apply ret_eat. intros c ts2 Hc L2.
    apply ret_rec; [apply fuel_for_le; lia|]. intros v ts3 Hv _. apply Run. eapply I_pair; eauto.
  Qed.

  Lemma field_item_ret : forall ts, ret (fuel_for ts) (fun '(f, r) => runr g (JField ts f r)) (field_item rec ts).
  Proof.
    intros ts. unfold field_item. apply ret_eat. intros nm ts1 Hnm L1. apply ret_eat. intros c ts2 Hc L2.
    apply ret_rec; [apply fuel_for_le; lia|]. intros v ts3 Hv _. apply Run. eapply I_field; eauto.
  Qed.

  Lemma parse_call_ret : forall callee lp ts,
    ret (fuel_for ts) (fun '(e, r) => runr g (JCall callee lp ts e r)) (parse_call rec callee lp ts).
  Proof.
    intros callee lp ts. unfold parse_call. destruct (try_eat K_RPAREN ts) as [[rp ts1]|] eqn:Hrp.
    - apply try_must in Hrp. apply ret_range. intros p Hp. apply Run. eapply C_empty; eauto.
    - apply try_none in Hrp. rewrite pbind_assoc, args_loop_eq.
      eapply ret_bind; [apply (sep_loop_full_ret (rec 0) (elem_of (runr g)) None (Hrec 0) (run_len_expr g 0)) | auto |].
      intros [args ts1] (xs & -> & Hq). rewrite pbind_assoc. apply ret_eat. intros rp ts2 Hm _.
      apply ret_range. intros p Hp. apply Run. eapply C_args; eauto.
  Qed.

  Lemma nud_fn_ret : forall n bp t ts,
    ret (fuel_for ts) (fun '(e, r) => runr g (JNud n bp t ts e r)) (nud_fn rec n bp t ts).
  Proof.
    intros n bp t ts. destruct n; cbn [nud_fn].
    1-3, 6: apply Run, N_atom; reflexivity.
    - destruct (num_parse (t_lexeme t)) eqn:E; [|exact I]. apply Run, N_atom. cbn [nud_atom]. rewrite E. reflexivity.
    - destruct (str_value (t_lexeme t)) eqn:E; [|exact I]. apply Run, N_atom. cbn [nud_atom]. rewrite E. reflexivity.
    - (* listmap *)
      destruct (try_eat K_COLON ts) as [[c ts1]|] eqn:Hcol.
      + apply try_must in Hcol. apply ret_eat. intros rb ts2 Hrb _. apply ret_range. intros p Hp. apply Run. eapply N_map_empty; eauto.
      + apply try_none in Hcol. destruct (kind_is (peek ts) K_RBRACKET) eqn:Hrb.
        * apply ret_eat. intros rb ts1 Hm _. apply ret_range. intros p Hp. apply Run. eapply N_list_empty; eauto.
        * apply ret_rec; [auto|]. intros e1 ts1 He1 L1.
          destruct (try_eat K_COLON ts1) as [[c ts2]|] eqn:Hcol1.
          -- apply try_must in Hcol1. pose proof (must_eat_len _ _ _ _ Hcol1) as L2. apply ret_rec; [apply fuel_for_le; lia|]. intros v ts3 Hv L3.
             eapply ret_bind; [apply (sep_more_full_ret _ _ _ _ (pairs_loop_eq rec) pair_item_ret (run_len_pair g) ts); lia | auto |].
             intros [kvs ts4] (kvs' & -> & Hq). apply ret_eat. intros rb ts5 Hm _. apply ret_range. intros p Hp.
             apply Run. eapply N_map; eauto.
          -- apply try_none in Hcol1.
             eapply ret_bind; [apply (sep_more_full_ret _ _ _ _ (fun n => elems_loop_eq rec n K_RBRACKET) (Hrec 0) (run_len_expr g 0) ts); lia
                              | auto |].
             intros [es ts2] (es' & -> & Hq). apply ret_eat. intros rb ts3 Hm _. apply ret_range. intros p Hp.
             apply Run. eapply N_list; eauto.
    - (* obj *)
      rewrite fields_loop_eq.
      eapply ret_bind; [apply (sep_loop_full_ret _ _ _ field_item_ret (fun ts f r _ => run_len_field g ts f r)) | auto |].
      intros [fs ts1] (fs' & -> & Hq). apply ret_eat. intros rb ts2 Hm _. apply ret_range. intros p Hp.
      apply Run. eapply N_obj; eauto.
    - apply ret_rec; [auto|]. intros e1 ts1 He1 _. apply ret_eat. intros rp ts2 Hm _. apply ret_range. intros p Hp.
      apply Run. eapply N_group; eauto.
    - apply ret_rec; [auto|]. intros e1 ts1 He1 _. apply ret_range. intros p Hp. apply Run. eapply N_prefix; eauto.
  Qed.

  Lemma led_fn_ret : forall l bp left t ts,
    ret (fuel_for ts) (fun '(e, r) => runr g (JLed l bp left t ts e r)) (led_fn rec l bp left t ts).
  Proof.
    intros l bp left t ts. destruct l; cbn [led_fn].
    1-3: apply ret_rec; [auto|]; intros r ts1 Hr _; apply ret_range; intros p Hp; apply Run; eapply L_bin; eauto; reflexivity.
    - apply ret_range. intros p Hp. apply Run. eapply L_postfix; eauto.
    - apply ret_rec; [auto|]. intros m ts1 Hm L1. apply ret_eat. intros c ts2 Hc L2.
      apply ret_rec; [apply fuel_for_le; lia|]. intros r ts3 Hr _. apply ret_range. intros p Hp.
      apply Run. eapply L_question; eauto.
    - rewrite eat_peek_tl. apply ret_range. intros p Hp. pose proof (sfx_len _ _ (sfx_tl ts)) as L1.
      destruct (try_eat K_LPAREN (tl ts)) as [[lp ts2]|] eqn:Hlp.
      + apply try_must in Hlp. pose proof (must_eat_len _ _ _ _ Hlp) as L2.
        eapply ret_weaken; [apply parse_call_ret | apply fuel_for_le; lia |].
        intros [e r] H. apply Run. eapply L_dotcall; eauto.
      + apply try_none in Hlp. apply Run. eapply L_dot; eauto.
    - eapply ret_weaken; [apply parse_call_ret | auto |]. intros [e r] H. apply Run, L_call. exact H.
    - apply ret_rec; [auto|]. intros i ts1 Hi _. apply ret_eat. intros rb ts2 Hm _. apply ret_range. intros p Hp.
      apply Run. eapply L_sub; eauto.
  Qed.

  (* every led consumes at least the operator token, so the loop's own fuel is bounded by the input as well.  Here and
     in [expr_step_ret] the input may be as long as [B]: the step eats a token before it calls [rec] on the rest *)
  Lemma infix_loop_ret : forall n rbp left ts,
    ret (eof_free g /\ (len ts < n)%nat /\ (len ts <= B)%nat) (fun '(e, r) => runr g (JLoop rbp left ts e r))
        (infix_loop g rec n rbp left ts).
  Proof.
    induction n as [|n IH]; intros rbp left ts; cbn [infix_loop]; [intros (_ & H & _); lia|].
    destruct (Z.ltb rbp (infix_lbp g (peek ts))) eqn:Hlt; [|apply Run, Lp_stop; exact Hlt].
    rewrite eat_peek_tl. destruct (get (t_kind (peek ts)) (g_infix g)) as [[bp l]|] eqn:Hget; [|exact I].
    eapply ret_bind; [apply led_fn_ret | |].
    - intros (Hg & Hn & HB). pose proof (get_len_tl _ _ _ (proj2 Hg) Hget). split; [exact Hg | lia].
    - intros [left' ts2] Hled. pose proof (run_len _ _ Hled) as L. cbn [j_ts j_rest] in L.
      destruct (infix_n_ok left') eqn:Hok; [|exact I].
      eapply ret_weaken; [apply IH | |].
      + intros (Hg & Hn & HB). pose proof (get_len_tl _ _ _ (proj2 Hg) Hget). split; [exact Hg | lia].
      + intros [e r] H. apply Run. eapply Lp_step; eauto.
  Qed.

  Lemma expr_step_ret : forall rbp ts,
    ret (eof_free g /\ (len ts <= B)%nat) (fun '(e, r) => runr g (JExpr rbp ts e r)) (expr_step g rec rbp ts).
  Proof.
    intros rbp ts. unfold expr_step. rewrite eat_peek_tl.
    destruct (get (t_kind (peek ts)) (g_prefix g)) as [[bp n]|] eqn:Hget; [|exact I].
    eapply ret_bind; [apply nud_fn_ret | |].
    - intros [Hg HB]. pose proof (get_len_tl _ _ _ (proj1 Hg) Hget). split; [exact Hg | lia].
    - intros [lft ts2] Hnud. pose proof (run_len _ _ Hnud) as L. cbn [j_ts j_rest] in L.
      eapply ret_weaken; [apply infix_loop_ret | |].
      + intros [Hg HB]. pose proof (get_len_tl _ _ _ (proj1 Hg) Hget). split; [exact Hg | lia].
      + intros [e r] H. apply Run. eapply R_expr; eauto.
  Qed.
End Fn.

Lemma p_expr_ret : forall g f rbp ts,
  ret (eof_free g /\ (len ts < f)%nat) (fun '(e, r) => runr g (JExpr rbp ts e r)) (p_expr g f rbp ts).
Proof.
  intros g. induction f as [|f IH]; intros rbp ts; cbn [p_expr]; [intros [_ H]; lia|].
  eapply ret_weaken; [apply (expr_step_ret g (p_expr g f) f IH) | | auto].
  intros [Hg H]. split; [exact Hg | lia].
Qed.

Lemma p_expr_run : forall g f rbp ts e rest,
  p_expr g f rbp ts = POk (e, rest) -> runr g (JExpr rbp ts e rest).
Proof. intros g f rbp ts e rest H. exact (ret_ok _ _ _ _ (p_expr_ret g f rbp ts) H). Qed.

Lemma p_expr_nf : forall g, eof_free g -> forall f rbp ts, (len ts < f)%nat -> p_expr g f rbp ts <> PFuel.
Proof. intros g Hg f rbp ts Hf. exact (ret_nf _ _ _ (p_expr_ret g f rbp ts) (conj Hg Hf)). Qed.

Lemma parse_tokens_run : forall ops ts e,
  parse_tokens ops ts = POk e -> runr (new_grammar ops) (JExpr 0 ts e []).
Proof.
  intros ops ts e H. unfold parse_tokens in H. apply pbind_ok in H as ([e1 rest] & Hp & H).
  destruct rest; inv H. apply p_expr_run in Hp. exact Hp.
Qed.

Definition okf {X} (r : pres X) (v : X) : Prop := r = PFuel \/ r = POk v.

Lemma okf_ok : forall {X} (r : pres X) v, r = POk v -> okf r v.
Proof. intros X r v H. right. exact H. Qed.

Lemma okf_bind : forall {X Y} (r : pres X) (k : X -> pres Y) v y, okf r v -> okf (k v) y -> okf (pbind r k) y.
Proof. intros X Y r k v y [->| ->] H; [left; reflexivity | exact H]. Qed.

(* the premises of a rule that are equations, a token eaten or a range taken, are steps of this kind *)
Lemma okf_then : forall {X Y} {r : pres X} {k : X -> pres Y} {v y}, r = POk v -> okf (k v) y -> okf (pbind r k) y.
Proof. intros X Y r k v y H. apply okf_bind, okf_ok, H. Qed.

Lemma sep_loop_okf : forall {A} (item : list token -> pres (A * list token)) (R : list token -> A -> list token -> Prop) close,
  (forall ts x r, R ts x r -> okf (item ts) (x, r)) ->
  forall b ts xs rest, sep_seq R close b ts xs rest -> forall n acc,
  okf (if b then sep_more (sep_loop item close n) ts acc else sep_loop item close n ts acc) (rev acc ++ xs, rest).
Proof.
  intros A item R close Hi b ts xs rest q. induction q; intros n acc.
  - destruct n; [left; reflexivity|]. cbn [sep_loop]. rewrite Hclose, app_nil_r. right. reflexivity.
  - destruct n; [left; reflexivity|]. cbn [sep_loop]. rewrite Hopen. eapply okf_bind; [apply Hi; exact Hitem|].
    rewrite <- rev_cons_app. apply (IHq n).
  - unfold sep_more. rewrite (try_eat_none Hnocomma), app_nil_r. right. reflexivity.
  - unfold sep_more. rewrite (try_eat_some Hcomma). apply IHq.
Qed.

Lemma sep_more_okf : forall {A} (R : list token -> A -> list token -> Prop) close loop ts (xs : list A) rest acc,
  sep_seq R close true ts xs rest ->
  (forall ts2, sep_seq R close false ts2 xs rest -> okf (loop ts2 acc) (rev acc ++ xs, rest)) ->
  okf (sep_more loop ts acc) (rev acc ++ xs, rest).
Proof.
  intros A R close loop ts xs rest acc q Hl. unfold sep_more. inv q.
  - rewrite (try_eat_none Hnocomma), app_nil_r. right. reflexivity.
  - rewrite (try_eat_some Hcomma). apply Hl. exact Hmore.
Qed.

Section RunFn.
  Variable g : grammar.

  Definition P_fn (j : judg) : Prop :=
    match j with
    | JExpr rbp ts e rest => forall f, okf (p_expr g f rbp ts) (e, rest)
    | JNud n bp t ts e rest => forall f, okf (nud_fn (p_expr g f) n bp t ts) (e, rest)
    | JLoop rbp lft ts e rest => forall f n, okf (infix_loop g (p_expr g f) n rbp lft ts) (e, rest)
    | JLed l bp lft t ts e rest => forall f, okf (led_fn (p_expr g f) l bp lft t ts) (e, rest)
    | JCall callee lp ts e rest => forall f, okf (parse_call (p_expr g f) callee lp ts) (e, rest)
    | JPair ts kv rest => forall f, okf (pair_item (p_expr g f) ts) (kv, rest)
    | JField ts fl rest => forall f, okf (field_item (p_expr g f) ts) (fl, rest)
    end.

  (* the derivation is replayed through the functions: a premise that is a judgement is met by its induction
     hypothesis, one that is an equation by [okf_then] or by rewriting the test it decides *)
  Lemma run_fn : forall j, runr g j -> P_fn j.
  Proof.
    intros j H. induction H as [j s] using run_induction. destruct s; cbn [P_fn] in *.
    - (* R_expr *) intros [|f]; [left; reflexivity|].
      cbn [p_expr]. unfold expr_step. rewrite eat_peek_tl, Hget. eapply okf_bind; [apply (proj2 Hnud) | apply (proj2 Hloop)].
    - (* N_atom *) intros f. right. destruct n; cbn [nud_atom] in Hatom; try discriminate; cbn [nud_fn].
      1-3, 6: inv Hatom; reflexivity.
      + destruct (num_parse (t_lexeme t)); inv Hatom. reflexivity.
      + destruct (str_value (t_lexeme t)); inv Hatom. reflexivity.
    - (* N_prefix *) intros f. cbn [nud_fn]. eapply okf_bind; [apply (proj2 Hx)|]. apply (okf_then Hspan), okf_ok. reflexivity.
    - (* N_group *) intros f. cbn [nud_fn]. eapply okf_bind; [apply (proj2 Hx)|].
      apply (okf_then Hrp), (okf_then Hspan), okf_ok. reflexivity.
    - (* N_obj *) intros f. cbn [nud_fn]. rewrite fields_loop_eq.
      eapply okf_bind; [apply (sep_loop_okf _ _ _ (fun _ _ _ h => proj2 h f) _ _ _ _ Hfs (S (len ts)) [])|].
      apply (okf_then Hrb), (okf_then Hspan), okf_ok. reflexivity.
    - (* N_map_empty *) intros f. cbn [nud_fn]. rewrite (try_eat_some Hcol).
      apply (okf_then Hrb), (okf_then Hspan), okf_ok. reflexivity.
    - (* N_list_empty *) intros f. cbn [nud_fn]. rewrite (try_eat_none Hnocol), (must_eat_kind_is _ _ _ Hrb).
      apply (okf_then Hrb), (okf_then Hspan), okf_ok. reflexivity.
    - (* N_list *) intros f. cbn [nud_fn]. rewrite (try_eat_none Hnocol), Hopen. eapply okf_bind; [apply (proj2 Hx)|].
      cbn [pbind]. rewrite (try_eat_none Hnocol1).
      eapply okf_bind.
      + apply (sep_more_okf _ _ (fun ts acc => elems_loop (p_expr g f) (S (len ts)) K_RBRACKET ts acc) _ _ _ [e] Hes).
        intros ts' q. rewrite elems_loop_eq. apply (sep_loop_okf _ _ _ (fun _ _ _ h => proj2 h f) _ _ _ _ q).
      + apply (okf_then Hrb), (okf_then Hspan), okf_ok. reflexivity.
    - (* N_map *) intros f. cbn [nud_fn]. rewrite (try_eat_none Hnocol), Hopen. eapply okf_bind; [apply (proj2 Hk)|].
      cbn [pbind]. rewrite (try_eat_some Hcol).
      eapply okf_bind; [apply (proj2 Hv)|]. cbn [pbind]. eapply okf_bind.
      + apply (sep_more_okf _ _ (fun ts acc => pairs_loop (p_expr g f) (S (len ts)) ts acc) _ _ _ [(k, v)] Hkvs).
        intros ts' q. rewrite pairs_loop_eq. apply (sep_loop_okf _ _ _ (fun _ _ _ h => proj2 h f) _ _ _ _ q).
      + apply (okf_then Hrb), (okf_then Hspan), okf_ok. reflexivity.
    - (* I_pair *) intros f. unfold pair_item. eapply okf_bind; [apply (proj2 Hk)|]. apply (okf_then Hcol).
      eapply okf_bind; [apply (proj2 Hv)|]. apply okf_ok. reflexivity.
    - (* I_field *) intros f. unfold field_item. apply (okf_then Hnm), (okf_then Hcol).
      eapply okf_bind; [apply (proj2 Hv)|]. apply okf_ok. reflexivity.
    - (* C_empty *) intros f. unfold parse_call. rewrite (try_eat_some Hrp). apply (okf_then Hspan), okf_ok. reflexivity.
    - (* C_args *) intros f. unfold parse_call. rewrite (try_eat_none Hnorp), args_loop_eq. cbv iota. rewrite pbind_assoc.
      eapply okf_bind; [apply (sep_loop_okf _ _ _ (fun _ _ _ h => proj2 h f) _ _ _ _ Hargs (S (len ts)) [])|].
      cbv beta iota. rewrite pbind_assoc. apply (okf_then Hrp), (okf_then Hspan), okf_ok. reflexivity.
    - (* L_bin *) intros f. destruct l; inv Hbin; cbn [led_fn];
        (eapply okf_bind; [apply (proj2 Hx)|]); apply (okf_then Hspan), okf_ok; reflexivity.
    - (* L_postfix *) intros f. cbn [led_fn]. apply (okf_then Hspan), okf_ok. reflexivity.
    - (* L_question *) intros f. cbn [led_fn]. eapply okf_bind; [apply (proj2 Hm)|]. apply (okf_then Hcol).
      eapply okf_bind; [apply (proj2 Hr)|]. apply (okf_then Hspan), okf_ok. reflexivity.
    - (* L_call *) intros f. apply (proj2 Hcall).
    - (* L_sub *) intros f. cbn [led_fn]. eapply okf_bind; [apply (proj2 Hi)|].
      apply (okf_then Hrb), (okf_then Hspan), okf_ok. reflexivity.
    - (* L_dot *) intros f. cbn [led_fn]. rewrite eat_peek_tl. apply (okf_then Hspan). rewrite (try_eat_none Hnolp). right. reflexivity.
    - (* L_dotcall *) intros f. cbn [led_fn]. rewrite eat_peek_tl. apply (okf_then Hspan). rewrite (try_eat_some Hlp). apply (proj2 Hcall).
    - (* Lp_stop *) intros f [|n]; [left; reflexivity|]. apply okf_ok. cbn [infix_loop]. rewrite Hstop. reflexivity.
    - (* Lp_step *) intros f [|n]; [left; reflexivity|]. cbn [infix_loop]. rewrite Hlt, eat_peek_tl, Hget.
      eapply okf_bind; [apply (proj2 Hled)|]. cbn [pbind]. rewrite Hok. apply (proj2 Hloop).
  Qed.
End RunFn.

Definition is_atom (e : expr) : bool :=
  match e with EStr _ _ | ENum _ _ | ETime _ _ | EBool _ _ | EIdent _ _ => true | _ => false end.

Lemma nud_atom_atom : forall n t e, nud_atom n t = Some e -> is_atom e = true.
Proof.
  intros n t e H. destruct n; cbn [nud_atom] in H; try discriminate;
    try (destruct (num_parse (t_lexeme t)); try discriminate); try (destruct (str_value (t_lexeme t)); try discriminate);
    inv H; reflexivity.
Qed.

Lemma seq_forallb : forall {A} (R : list token -> A -> list token -> Prop) close (f : A -> bool) (Inv : list token -> Prop),
  (forall k ts t r, must_eat k ts = POk (t, r) -> Inv ts -> Inv r) ->
  (forall ts x r, R ts x r -> Inv ts -> f x = true /\ Inv r) ->
  forall b ts xs rest, sep_seq R close b ts xs rest -> Inv ts -> forallb f xs = true.
Proof.
  intros A R close f Inv Heat Hi b ts xs rest q. induction q; intros HI; cbn [forallb]; try reflexivity.
  - destruct (Hi _ _ _ Hitem HI) as [-> HI1]. apply IHq. exact HI1.
  - apply IHq. exact (Heat _ _ _ _ Hcomma HI).
Qed.

Definition P_nnc (j : judg) : Prop :=
  let nnc := no_nonassoc_chain in
  match j with
  | JExpr _ _ e _ => nnc e = true
  | JNud _ _ _ _ e _ => nnc e = true
  | JLoop _ lft _ e _ => nnc lft = true -> nnc e = true
  | JLed _ _ lft _ _ e _ => nnc lft = true -> infix_n_ok e = true -> nnc e = true
  | JCall callee _ _ e _ => nnc callee = true -> nnc e = true
  | JPair _ kv _ => nnc (fst kv) && nnc (snd kv) = true
  | JField _ f _ => nnc (snd f) = true
  end.

Lemma seq_nnc : forall {A} (R : list token -> A -> list token -> Prop) close (f : A -> bool) b ts xs rest,
  sep_seq (fun ts x r => R ts x r /\ f x = true) close b ts xs rest -> forallb f xs = true.
Proof.
  intros A R close f b ts xs rest q.
  apply (seq_forallb _ _ f (fun _ => True) (fun _ _ _ _ _ _ => I) (fun _ _ _ h _ => conj (proj2 h) I) _ _ _ _ q I).
Qed.

Lemma run_nnc : forall g j, runr g j -> P_nnc j.
Proof.
  intros g j H. induction H as [j s] using run_induction.
  destruct s; cbn [P_nnc] in *; cbn [no_nonassoc_chain forallb fst snd] in *.
  - (* R_expr *) apply (proj2 Hloop), (proj2 Hnud).
  - (* N_atom *) apply nud_atom_atom in Hatom. destruct e; try discriminate; reflexivity.
  - (* N_prefix *) exact (proj2 Hx).
  - (* N_group *) exact (proj2 Hx).
  - (* N_obj *) exact (seq_nnc _ _ _ _ _ _ _ Hfs).
  - (* N_map_empty *) reflexivity.
  - (* N_list_empty *) reflexivity.
  - (* N_list *) rewrite (proj2 Hx). exact (seq_nnc _ _ _ _ _ _ _ Hes).
  - (* N_map *) rewrite (proj2 Hk), (proj2 Hv). exact (seq_nnc _ _ (fun kv => _) _ _ _ _ Hkvs).
  - (* I_pair *) rewrite (proj2 Hk), (proj2 Hv). reflexivity.
  - (* I_field *) exact (proj2 Hv).
  - (* C_empty *) intros Hc. rewrite Hc. reflexivity.
  - (* C_args *) intros Hc. rewrite Hc. exact (seq_nnc _ _ _ _ _ _ _ Hargs).
  - (* L_bin: only here does the led's own test [infix_n_ok] matter *)
    intros Hl Hn. rewrite Hl, (proj2 Hx).
    destruct l; inv Hbin; cbn [N.eqb Pos.eqb andb]; try reflexivity.
    unfold same_binary. cbn [infix_n_ok] in Hn. rewrite Hn. reflexivity.
  - (* L_postfix *) intros Hl _. exact Hl.
  - (* L_question *) intros Hl _. rewrite Hl, (proj2 Hm), (proj2 Hr). reflexivity.
  - (* L_call *) intros Hl _. exact (proj2 Hcall Hl).
  - (* L_sub *) intros Hl _. rewrite Hl, (proj2 Hi). reflexivity.
  - (* L_dot *) intros Hl _. exact Hl.
  - (* L_dotcall *) intros Hl _. exact (proj2 Hcall Hl).
  - (* Lp_stop *) intros Hl. exact Hl.
  - (* Lp_step *) intros Hl. apply (proj2 Hloop), (proj2 Hled); assumption.
Qed.

Lemma parse_nonassoc : forall ops ts e,
  parse_tokens ops ts = POk e -> no_nonassoc_chain e = true.
Proof. intros ops ts e H. apply parse_tokens_run, run_nnc in H. exact H. Qed.

Lemma get_put : forall {X} k k' (x : X) l,
  get k (put k' x l) = if list_eqb k k' then Some x else get k l.
Proof.
  intros X k k' x l. induction l as [|[k2 x2] r IH]; cbn [put get].
  - reflexivity.
  - destruct (list_eqb k' k2) eqn:E.
    + apply list_eqb_eq in E. subst k2. cbn [get]. destruct (list_eqb k k'); reflexivity.
    + cbn [get]. rewrite IH. destruct (list_eqb k k2) eqn:E2; [|reflexivity].
      destruct (list_eqb k k') eqn:E3; [|reflexivity].
      apply list_eqb_eq in E2. apply list_eqb_eq in E3. subst. rewrite list_eqb_refl in E. discriminate.
Qed.

Lemma get_In : forall {X} k (l : list (list N * X)) x, get k l = Some x -> In (k, x) l.
Proof. intros X. exact (ListFacts.get_In list_eqb (@get) list_eqb_eq (fun _ _ => eq_refl) (fun _ _ _ _ _ => eq_refl) X). Qed.

Definition ng_p0 : list (list N * (Z * nud)) :=
  fold_left (fun acc kn => put (fst kn) (BP_NONE, snd kn) acc)
    [(K_SYM, NIdent); (K_TRUE, NTrue); (K_FALSE, NFalse); (K_NUM, NNum); (K_STR, NStr); (K_TIME, NTime);
     (K_LBRACKET, NListMap); (K_LBRACE, NObj); (K_LPAREN, NGroup)] [].

Definition ng_step : (list (list N * (Z * nud)) * list (list N * (Z * led))) -> operator ->
                     (list (list N * (Z * nud)) * list (list N * (Z * led))) :=
  fun '(p, i) o =>
    match o_fix o with
    | 1%N => (put (o_kind o) (o_bp o, NPrefix) p, i)
    | 2%N => (p, put (o_kind o) (o_bp o, LBinN) i)
    | 3%N => (p, put (o_kind o) (o_bp o, LBinL) i)
    | 4%N => (p, put (o_kind o) (o_bp o, LBinR) i)
    | 5%N => (p, put (o_kind o) (o_bp o, LPostfix) i)
    | _ => (p, i)
    end.

Definition ng_fixed_infix (i1 : list (list N * (Z * led))) :=
  put K_LBRACKET (BP_MEMBER, LSubscript)
    (put K_LPAREN (BP_CALL, LCall) (put K_DOT (BP_MEMBER, LDot) (put K_QUESTION (BP_COND, LQuestion) i1))).

Lemma new_grammar_eq : forall ops,
  new_grammar ops =
  let pi := fold_left ng_step (sort_ops (fun o => byte_len (o_kind o)) ops) (ng_p0, []) in
  mkGrammar (fst pi) (ng_fixed_infix (snd pi)).
Proof.
  intro ops. unfold new_grammar. fold ng_p0. fold ng_step.
  destruct (fold_left ng_step (sort_ops (fun o => byte_len (o_kind o)) ops) (ng_p0, [])) as [p1 i1].
  reflexivity.
Qed.

Definition led_of_fix (fx : N) : option led :=
  match fx with 2%N => Some LBinN | 3%N => Some LBinL | 4%N => Some LBinR | 5%N => Some LPostfix | _ => None end.

Lemma ng_step_eq : forall p i o, ng_step (p, i) o =
  if N.eqb (o_fix o) 1 then (put (o_kind o) (o_bp o, NPrefix) p, i)
  else match led_of_fix (o_fix o) with Some ld => (p, put (o_kind o) (o_bp o, ld) i) | None => (p, i) end.
Proof.
  intros p i o. unfold ng_step. destruct (o_fix o) as [|[[q|q|]|[q|q|]|]]; try reflexivity; destruct q; reflexivity.
Qed.

Lemma ng_fold_prefix : forall l p i k bp n,
  get k (fst (fold_left ng_step l (p, i))) = Some (bp, n) ->
  get k p = Some (bp, n) \/ (n = NPrefix /\ exists o, In o l /\ o_kind o = k /\ o_bp o = bp /\ o_fix o = 1%N).
Proof.
  induction l as [|o l IH]; intros p i k bp n H; cbn [fold_left] in H; [left; exact H|].
  rewrite ng_step_eq in H. destruct (N.eqb (o_fix o) 1) eqn:E1; [|destruct (led_of_fix (o_fix o))];
    apply IH in H as [H|(Hn & o' & Hin & Ho')]; try (left; exact H);
    try (right; split; [exact Hn|]; exists o'; split; [right; exact Hin | exact Ho']).
  rewrite get_put in H. destruct (list_eqb k (o_kind o)) eqn:Ek; [|left; exact H].
  inv H. apply list_eqb_eq in Ek. apply N.eqb_eq in E1. right. split; [reflexivity|]. exists o. cbn. auto.
Qed.

Lemma ng_fold_infix : forall l p i k bp ld,
  get k (snd (fold_left ng_step l (p, i))) = Some (bp, ld) ->
  get k i = Some (bp, ld) \/ (exists o, In o l /\ o_kind o = k /\ o_bp o = bp /\ led_of_fix (o_fix o) = Some ld).
Proof.
  induction l as [|o l IH]; intros p i k bp ld H; cbn [fold_left] in H; [left; exact H|].
  rewrite ng_step_eq in H. destruct (N.eqb (o_fix o) 1); [|destruct (led_of_fix (o_fix o)) as [ld'|] eqn:El];
    apply IH in H as [H|(o' & Hin & Ho')]; try (left; exact H);
    try (right; exists o'; split; [right; exact Hin | exact Ho']).
  rewrite get_put in H. destruct (list_eqb k (o_kind o)) eqn:Ek; [|left; exact H].
  inv H. apply list_eqb_eq in Ek. right. exists o. cbn. auto.
Qed.

Lemma ng_fold_untouched : forall l p i k,
  (forall o, In o l -> list_eqb k (o_kind o) = false) ->
  get k (fst (fold_left ng_step l (p, i))) = get k p /\ get k (snd (fold_left ng_step l (p, i))) = get k i.
Proof.
  induction l as [|o l IH]; intros p i k Hk; cbn [fold_left]; [split; reflexivity|].
  assert (Ho : list_eqb k (o_kind o) = false) by (apply Hk; left; reflexivity).
  assert (Hl : forall o', In o' l -> list_eqb k (o_kind o') = false) by (intros o' Hin; apply Hk; right; exact Hin).
  rewrite ng_step_eq. destruct (N.eqb (o_fix o) 1); [|destruct (led_of_fix (o_fix o))];
    (edestruct IH as [E1 E2]; [exact Hl|]); rewrite E1, E2, ?get_put, ?Ho; split; reflexivity.
Qed.

Definition no_eof_operator (ops : list operator) : bool := forallb (fun o => negb (list_eqb (o_kind o) K_EOF)) ops.

Lemma no_eof_operator_grammar : forall ops, no_eof_operator ops = true -> eof_free (new_grammar ops).
Proof.
  intros ops H. unfold eof_free. rewrite new_grammar_eq. cbn [g_prefix g_infix].
  destruct (ng_fold_untouched (sort_ops (fun o => byte_len (o_kind o)) ops) ng_p0 [] K_EOF) as [H1 H2].
  { intros o Hin. apply sort_ops_In in Hin. unfold no_eof_operator in H. rewrite forallb_forall in H.
    apply H in Hin. rewrite list_eqb_sym. destruct (list_eqb (o_kind o) K_EOF); [discriminate | reflexivity]. }
  split.
  - rewrite H1. reflexivity.
  - unfold ng_fixed_infix. rewrite !get_put, H2. reflexivity.
Qed.

Lemma table_ok_no_eof_operator : forall ops, table_ok ops = true -> no_eof_operator ops = true.
Proof.
  intros ops H. unfold table_ok in H. unfold no_eof_operator. rewrite forallb_forall in *.
  intros o Hin. apply H in Hin. apply andb_true_iff in Hin. destruct Hin as [Hin _].
  destruct (list_eqb (o_kind o) K_EOF) eqn:E; [|reflexivity].
  cbn [existsb fixed_kinds] in Hin. rewrite E in Hin. rewrite !orb_true_r in Hin. discriminate.
Qed.

Lemma no_fuel_partial : forall ops ts, no_eof_operator ops = true -> parse_tokens ops ts <> PFuel.
Proof.
  intros ops ts H. unfold parse_tokens. apply pbind_nf.
  - apply p_expr_nf; [apply no_eof_operator_grammar; exact H | lia].
  - intros [e rest] _. destruct rest; discriminate.
Qed.

Lemma no_fuel_table_ok : forall ops ts, table_ok ops = true -> parse_tokens ops ts <> PFuel.
Proof. intros ops ts H. apply no_fuel_partial. apply table_ok_no_eof_operator. exact H. Qed.

Definition notfixed (k : list N) : Prop := existsb (list_eqb k) fixed_kinds = false.

Definition nud_kind (n : nud) : option (list N) :=
  match n with
  | NIdent => Some K_SYM | NTrue => Some K_TRUE | NFalse => Some K_FALSE | NNum => Some K_NUM | NStr => Some K_STR
  | NTime => Some K_TIME | NListMap => Some K_LBRACKET | NObj => Some K_LBRACE | NGroup => Some K_LPAREN
  | NPrefix => None
  end.

Definition led_kind (l : led) : option (list N * Z) :=
  match l with
  | LQuestion => Some (K_QUESTION, BP_COND) | LDot => Some (K_DOT, BP_MEMBER) | LCall => Some (K_LPAREN, BP_CALL)
  | LSubscript => Some (K_LBRACKET, BP_MEMBER)
  | _ => None
  end.

Definition nud_spec (k : list N) (bp : Z) (n : nud) : Prop :=
  match nud_kind n with Some k' => k = k' /\ bp = 0 | None => notfixed k /\ 0 <= bp end.

Definition led_spec (k : list N) (bp : Z) (l : led) : Prop :=
  match led_kind l with
  | Some (k', bp') => k = k' /\ bp = bp'
  | None => notfixed k /\ 0 < bp /\ (l = LBinR -> 8 <= bp)
  end.

Record gram_ok (g : grammar) : Prop := {
  go_eof : eof_free g;
  go_prefix : forall k bp n, get k (g_prefix g) = Some (bp, n) -> nud_spec k bp n;
  go_infix : forall k bp l, get k (g_infix g) = Some (bp, l) -> led_spec k bp l;
  go_fixed_prefix : forall n k, nud_kind n = Some k -> get k (g_prefix g) = Some (0, n);
  go_fixed_infix : forall l k bp, led_kind l = Some (k, bp) -> get k (g_infix g) = Some (bp, l)
}.

Lemma table_ok_in : forall ops o, table_ok ops = true -> In o ops ->
  notfixed (o_kind o) /\ (o_fix o = 1%N -> 0 <= o_bp o) /\
  (forall ld, led_of_fix (o_fix o) = Some ld -> led_spec (o_kind o) (o_bp o) ld).
Proof.
  intros ops o H Hin. unfold table_ok in H. rewrite forallb_forall in H. apply H in Hin.
  apply andb_true_iff in Hin as [H1 H2]. apply negb_true_iff in H1. split; [exact H1|].
  (* the fixities 1 to 5 *)
  destruct (o_fix o) as [|[[q|q|]|[q|q|]|]]; try discriminate H2; try (destruct q; try discriminate H2).
  all: rewrite ?Z.leb_le, ?Z.ltb_lt in H2; split; [intros E | intros ld E; cbn in E]; try discriminate E; try exact H2.
  all: inv E; split; [exact H1|]; split; [lia|]; intro El; try discriminate El; exact H2.
Qed.

Lemma notfixed_neq : forall k k', notfixed k -> existsb (list_eqb k') fixed_kinds = true -> list_eqb k' k = false.
Proof.
  intros k k' H Hf. destruct (list_eqb k' k) eqn:E; [|reflexivity].
  apply list_eqb_eq in E. subst k'. unfold notfixed in H. congruence.
Qed.

Lemma get_ng_p0 : forall k bp n, get k ng_p0 = Some (bp, n) -> nud_kind n = Some k /\ bp = 0.
Proof.
  intros k bp n H. apply get_In in H. vm_compute in H.
  repeat (destruct H as [H|H]; [inv H; split; reflexivity|]). destruct H.
Qed.

Lemma table_ok_gram_ok : forall ops, table_ok ops = true -> gram_ok (new_grammar ops).
Proof.
  intros ops Hok.
  assert (Huntouched : forall k, existsb (list_eqb k) fixed_kinds = true ->
            get k (fst (fold_left ng_step (sort_ops (fun o => byte_len (o_kind o)) ops) (ng_p0, []))) = get k ng_p0 /\
            get k (snd (fold_left ng_step (sort_ops (fun o => byte_len (o_kind o)) ops) (ng_p0, []))) = None).
  { intros k Hk. apply ng_fold_untouched. intros o Hin. apply sort_ops_In in Hin.
    destruct (table_ok_in ops o Hok Hin) as [Hnf _]. apply notfixed_neq; assumption. }
  constructor.
  - apply no_eof_operator_grammar. apply table_ok_no_eof_operator. exact Hok.
  - intros k bp n H. rewrite new_grammar_eq in H. cbn [g_prefix] in H.
    apply ng_fold_prefix in H. destruct H as [H|[-> [o [Hin [Hk [Hbp Hfix]]]]]].
    + apply get_ng_p0 in H. destruct H as [H ->]. unfold nud_spec. rewrite H. split; reflexivity.
    + apply sort_ops_In in Hin. destruct (table_ok_in ops o Hok Hin) as (Hnf & Hb & _).
      subst. split; [exact Hnf | exact (Hb Hfix)].
  - intros k bp l H. rewrite new_grammar_eq in H. cbn [g_infix] in H. unfold ng_fixed_infix in H.
    rewrite !get_put in H.
    destruct (list_eqb k K_LBRACKET) eqn:E1; [apply list_eqb_eq in E1; inv H; split; reflexivity|].
    destruct (list_eqb k K_LPAREN) eqn:E2; [apply list_eqb_eq in E2; inv H; split; reflexivity|].
    destruct (list_eqb k K_DOT) eqn:E3; [apply list_eqb_eq in E3; inv H; split; reflexivity|].
    destruct (list_eqb k K_QUESTION) eqn:E4; [apply list_eqb_eq in E4; inv H; split; reflexivity|].
    apply ng_fold_infix in H. destruct H as [H|[o [Hin [Hk [Hbp Hfix]]]]]; [discriminate|].
    apply sort_ops_In in Hin. subst k bp. exact (proj2 (proj2 (table_ok_in ops o Hok Hin)) l Hfix).
  - intros n k Hn. rewrite new_grammar_eq. cbn [g_prefix].
    assert (Hin : existsb (list_eqb k) fixed_kinds = true) by (destruct n; inv Hn; reflexivity).
    destruct (Huntouched k Hin) as [-> _]. destruct n; inv Hn; reflexivity.
  - intros l k bp Hl. rewrite new_grammar_eq. cbn [g_infix]. unfold ng_fixed_infix. rewrite !get_put.
    assert (Hin : existsb (list_eqb k) fixed_kinds = true) by (destruct l; inv Hl; reflexivity).
    destruct (Huntouched k Hin) as [_ ->]. destruct l; inv Hl; reflexivity.
Qed.

Lemma go_prefix_fixed : forall g k bp n k', gram_ok g ->
  get k (g_prefix g) = Some (bp, n) -> nud_kind n = Some k' -> k = k' /\ bp = 0.
Proof. intros g k bp n k' Hg H E. pose proof (go_prefix g Hg _ _ _ H) as Hs. unfold nud_spec in Hs. rewrite E in Hs. exact Hs. Qed.

Lemma go_prefix_op : forall g k bp, gram_ok g -> get k (g_prefix g) = Some (bp, NPrefix) -> notfixed k /\ 0 <= bp.
Proof. intros g k bp Hg H. exact (go_prefix g Hg _ _ _ H). Qed.

Lemma go_infix_fixed : forall g k bp l k' bp', gram_ok g ->
  get k (g_infix g) = Some (bp, l) -> led_kind l = Some (k', bp') -> k = k' /\ bp = bp'.
Proof. intros g k bp l k' bp' Hg H E. pose proof (go_infix g Hg _ _ _ H) as Hs. unfold led_spec in Hs. rewrite E in Hs. exact Hs. Qed.

Lemma go_infix_op : forall g k bp l, gram_ok g ->
  get k (g_infix g) = Some (bp, l) -> led_kind l = None -> notfixed k /\ 0 < bp /\ (l = LBinR -> 8 <= bp).
Proof. intros g k bp l Hg H E. pose proof (go_infix g Hg _ _ _ H) as Hs. unfold led_spec in Hs. rewrite E in Hs. exact Hs. Qed.

Lemma get_not_eof : forall {X} (tbl : list (list N * X)) t x,
  get K_EOF tbl = None -> get (t_kind t) tbl = Some x -> is_eof t = false.
Proof.
  intros X tbl t x He H. unfold is_eof. destruct (list_eqb (t_kind t) K_EOF) eqn:E; [|reflexivity].
  apply list_eqb_eq in E. congruence.
Qed.

Definition nud_tok (g : grammar) (n : nud) (bp : Z) (t : token) : Prop :=
  match nud_kind n with
  | Some k => is_kind k t
  | None => is_eof t = false /\ prefix_bp g (t_kind t) = Some bp /\ notfixed (t_kind t)
  end.

Definition led_tok (g : grammar) (l : led) (bp : Z) (t : token) : Prop :=
  match led_kind l with
  | Some (k, bp') => is_kind k t /\ bp = bp'
  | None => is_eof t = false /\ infix_entry g (t_kind t) = Some (bp, l) /\ notfixed (t_kind t)
  end.

Lemma nud_tok_get : forall g t bp n, gram_ok g -> get (t_kind t) (g_prefix g) = Some (bp, n) -> nud_tok g n bp t.
Proof.
  intros g t bp n Hg H. pose proof (get_not_eof _ _ _ (proj1 (go_eof g Hg)) H) as Ht. unfold nud_tok.
  destruct (nud_kind n) as [k|] eqn:E.
  - split; [apply (go_prefix_fixed g _ _ _ _ Hg H E) | exact Ht].
  - destruct n; try discriminate E. split; [exact Ht|].
    split; [unfold prefix_bp; rewrite H; reflexivity | apply (go_prefix_op g _ _ Hg H)].
Qed.

Lemma led_tok_get : forall g t bp l, gram_ok g -> get (t_kind t) (g_infix g) = Some (bp, l) -> led_tok g l bp t.
Proof.
  intros g t bp l Hg H. pose proof (get_not_eof _ _ _ (proj2 (go_eof g Hg)) H) as Ht. unfold led_tok.
  destruct (led_kind l) as [[k bp']|] eqn:E.
  - destruct (go_infix_fixed g _ _ _ _ _ Hg H E) as [Hk ->]. split; [split; [exact Hk | exact Ht] | reflexivity].
  - split; [exact Ht|]. split; [exact H | apply (go_infix_op g _ _ _ Hg H E)].
Qed.

Lemma led_bin_kind : forall l bp p, led_bin l bp = Some p -> led_kind l = None.
Proof. intros l bp p H. destruct l; try discriminate H; reflexivity. Qed.

Lemma yields_span : forall g e ts,
  yields g e ts -> ts <> [] /\ expr_pos e = span (tok_pos (hd eof_tok ts)) (tok_pos (last ts eof_tok)).
Proof.
  intros g e ts H. induction H; cbn [expr_pos].
  all: repeat match goal with IH : ?u <> [] /\ _ = _ |- _ => destruct IH as [? ->]; destruct u; [congruence|] end.
  all: split; [discriminate|].
  (* every sub-string starts with a cons here, so [hd] computes; bring the string to the form _ ++ x :: b for [last] *)
  all: rewrite ?app_comm_cons, ?app_assoc, ?last_app_cons; reflexivity.
Qed.

Lemma no_eof_tl : forall ts, no_eof ts = true -> no_eof (tl ts) = true.
Proof. intros [|t r] H; [exact H|]. unfold no_eof in H. cbn [forallb] in H. apply andb_true_iff in H. apply H. Qed.

Lemma range_ok : forall a b p, range a b = POk p -> p = span a b /\ p_idx a <= p_idx b.
Proof.
  intros a b p H. unfold range in H. destruct (Z.leb (p_idx a) (p_idx b)) eqn:E; inv H.
  split; [reflexivity | apply Z.leb_le; exact E].
Qed.

Lemma close_bracket : forall {kl lb k ts rb ts' p},
  is_kind kl lb -> must_eat k ts = POk (rb, ts') -> range (tpos lb) (tpos rb) = POk p -> list_eqb k K_EOF = false ->
  ts = rb :: ts' /\ is_kind k rb /\ p = span (tok_pos lb) (tok_pos rb).
Proof.
  intros kl lb k ts rb ts' p Hlb Hrb Hp Hk. apply must_eat_kind in Hrb as [-> Hrb]; [|exact Hk].
  apply range_ok in Hp as [-> _]. rewrite (tpos_kind _ _ Hlb), (tpos_kind _ _ Hrb). auto.
Qed.

Lemma sep_by_nil_inv : forall comma all, sep_by comma [] all -> all = [].
Proof. intros comma all H. inversion H. reflexivity. Qed.

(* in [Items_more] with [xs = []] the comma is a trailing one, which [tr] allows: everywhere but in call arguments *)
Inductive items {A} (tr : bool) (R : A -> list token -> Prop) : list A -> list token -> Prop :=
| Items_nil : items tr R [] []
| Items_one : forall x u, R x u -> items tr R [x] u
| Items_more : forall x u c xs us, R x u -> is_kind K_COMMA c -> items tr R xs us -> tr = true \/ xs <> [] ->
    items tr R (x :: xs) (u ++ c :: us).

Lemma items_sep : forall {A} tr (R : A -> list token -> Prop) xs us, items tr R xs us ->
  exists tss tes tc, Forall2 R xs tss /\ sep_by (is_kind K_COMMA) tss tes /\ opt_comma tc /\ (xs = [] -> tc = []) /\
                     (tr = false -> tc = []) /\ us = tes ++ tc.
Proof.
  induction 1 as [|x u Hx|x u c xs us Hx Hc Hi (tss & tes & tc & HF & Hs & Ho & Hnil & Htr & ->) Hor].
  - exists [], [], []. repeat split; [constructor | constructor | left; reflexivity].
  - exists [u], u, []. split; [repeat constructor; exact Hx|]. split; [constructor|]. split; [left; reflexivity|].
    split; [discriminate|]. split; [reflexivity | symmetry; apply app_nil_r].
  - destruct xs as [|x1 xs].
    + inv HF. apply sep_by_nil_inv in Hs. subst tes. rewrite (Hnil eq_refl).
      exists [u], u, [c]. split; [repeat constructor; exact Hx|]. split; [constructor|].
      split; [right; exists c; split; [exact Hc | reflexivity]|]. split; [discriminate|].
      split; [destruct Hor; congruence | reflexivity].
    + exists (u :: tss), (u ++ c :: tes), tc. split; [constructor; assumption|].
      split; [constructor; [exact Hc | inv HF; discriminate | exact Hs]|]. split; [exact Ho|].
      split; [discriminate|]. split; [exact Htr | rewrite <- app_assoc; reflexivity].
Qed.

Lemma sep_items : forall {A} tr (R : A -> list token -> Prop) tss tes, sep_by (is_kind K_COMMA) tss tes ->
  forall xs tc, Forall2 R xs tss -> opt_comma tc -> (xs = [] -> tc = []) -> (tr = false -> tc = []) ->
  items tr R xs (tes ++ tc).
Proof.
  induction 1 as [|u|u c tss all Hc Hne Hs IH]; intros xs tc HF Ho Hnil Htr.
  - inv HF. rewrite (Hnil eq_refl). constructor.
  - inv HF. match goal with H : Forall2 _ _ [] |- _ => inv H end. destruct Ho as [->|(c & Hc & ->)].
    + rewrite app_nil_r. constructor; assumption.
    + apply Items_more; [assumption | exact Hc | constructor|]. destruct tr; [left; reflexivity | discriminate (Htr eq_refl)].
  - inv HF. rewrite <- app_assoc. assert (Hl : l <> []).
    { intros ->. match goal with H : Forall2 _ [] _ |- _ => inv H end. congruence. }
    apply Items_more; [assumption | exact Hc | apply IH; auto; intros E; contradiction | right; exact Hl].
Qed.

Definition trails (close : option (list N)) : bool := match close with Some _ => true | None => false end.

Definition after_item {A} tr (Y : A -> list token -> Prop) (xs : list A) (ts rest : list token) : Prop :=
  (xs = [] /\ ts = rest) \/
  exists c us, ts = c :: us ++ rest /\ is_kind K_COMMA c /\ items tr Y xs us /\ (tr = true \/ xs <> []).

Lemma items_cons : forall {A} tr (Y : A -> list token -> Prop) x u xs ts1 rest,
  Y x u -> after_item tr Y xs ts1 rest -> exists us, u ++ ts1 = us ++ rest /\ items tr Y (x :: xs) us.
Proof.
  intros A tr Y x u xs ts1 rest Hx [[-> ->]|(c & us & -> & Hc & Hi & Hor)].
  - exists u. split; [reflexivity | apply Items_one; exact Hx].
  - exists (u ++ c :: us). split; [rewrite <- app_assoc; reflexivity | apply Items_more; assumption].
Qed.

Lemma seq_items : forall {A} (R : list token -> A -> list token -> Prop) (Y : A -> list token -> Prop) close,
  (forall ts x r, R ts x r -> exists u, ts = u ++ r /\ Y x u) ->
  forall b ts xs rest, sep_seq R close b ts xs rest ->
  if b then after_item (trails close) Y xs ts rest else exists us, ts = us ++ rest /\ items (trails close) Y xs us.
Proof.
  intros A R Y close Hi b ts xs rest q. induction q.
  - exists []. split; [reflexivity | constructor].
  - apply Hi in Hitem as (u & -> & Hx). apply items_cons; assumption.
  - left. split; reflexivity.
  - apply must_eat_kind in Hcomma as [-> Hc]; [|reflexivity]. destruct IHq as (us & -> & Hit).
    right. exists c, us. split; [reflexivity|]. split; [exact Hc|]. split; [exact Hit|].
    (* call arguments have no trailing comma *)
    destruct close; [left; reflexivity | right; inv q; discriminate].
Qed.

Ltac lnorm := cbn [app]; repeat (rewrite <- app_assoc; cbn [app]).

Section Yields.
  Variable g : grammar.
  Hypothesis Hg : gram_ok g.

  Definition pair_rel (kv : expr * expr) (ts : list token) : Prop :=
    exists tk c tv, is_kind K_COLON c /\ yields g (fst kv) tk /\ yields g (snd kv) tv /\ ts = tk ++ c :: tv.
  Definition field_rel (f : list N * expr) (ts : list token) : Prop :=
    exists n c tv, is_kind K_SYM n /\ is_kind K_COLON c /\ fst f = t_lexeme n /\ yields g (snd f) tv /\ ts = n :: c :: tv.

  Definition P_yields (j : judg) : Prop :=
    match j with
    | JExpr _ ts e rest => exists used, ts = used ++ rest /\ yields g e used
    | JNud n bp t ts e rest => nud_tok g n bp t -> exists used, ts = used ++ rest /\ yields g e (t :: used)
    | JLoop _ lft ts e rest =>
        forall ul, yields g lft ul -> exists used, ts = used ++ rest /\ yields g e (ul ++ used)
    | JLed l bp lft t ts e rest =>
        forall ul, led_tok g l bp t -> yields g lft ul -> exists used, ts = used ++ rest /\ yields g e (ul ++ t :: used)
    | JCall callee lp ts e rest =>
        forall uc, is_kind K_LPAREN lp -> yields g callee uc ->
        exists used, ts = used ++ rest /\ yields g e (uc ++ lp :: used)
    | JPair ts kv rest => exists u, ts = u ++ rest /\ pair_rel kv u
    | JField ts f rest => exists u, ts = u ++ rest /\ field_rel f u
    end.

  Lemma pair_rel_intro : forall k v u1 c u2,
    yields g k u1 -> is_kind K_COLON c -> yields g v u2 -> pair_rel (k, v) (u1 ++ c :: u2).
  Proof. intros k v u1 c u2 Hk Hc Hv. exists u1, c, u2. auto. Qed.

  (* the member name after a dot is whatever token comes next, but the range check rejects the end of input
     (and a token of kind K_EOF), whose position is [pos_unknown] *)
  Lemma name_tok : forall left ul ts p, yields g left ul -> range (expr_pos left) (tpos (peek ts)) = POk p ->
    ts = peek ts :: tl ts /\ is_eof (peek ts) = false /\ p = span (expr_pos left) (tok_pos (peek ts)).
  Proof.
    intros left ul ts p Hy H. apply range_ok in H as [-> Hidx]. apply yields_span in Hy as [_ Hy].
    rewrite Hy in Hidx at 1. cbn [span p_idx tok_pos] in Hidx. unfold tpos in *. destruct (is_eof (peek ts)) eqn:E; [cbn in Hidx; lia|].
    destruct ts; [discriminate | auto].
  Qed.

  Lemma atom_yields : forall n t bp e, nud_tok g n bp t -> nud_atom n t = Some e -> yields g e [t].
  Proof.
    intros n t bp e Hk H. destruct n; cbn [nud_atom] in H; try discriminate; rewrite (tpos_kind _ _ Hk) in H.
    1-3, 6: inv H; constructor; exact Hk.
    - destruct (num_parse (t_lexeme t)) eqn:E; inv H. constructor; [exact Hk | congruence].
    - destruct (str_value (t_lexeme t)) eqn:E; inv H. constructor; [exact Hk | congruence].
  Qed.

  Lemma run_yields : forall j, runr g j -> P_yields j.
  Proof.
    intros j H. induction H as [j s] using run_induction. destruct s; cbn [P_yields] in *.
    - (* R_expr *) pose proof (get_peek_cons _ _ _ (proj1 (go_eof g Hg)) Hget) as Hts.
      destruct ts as [|t0 r0]; [discriminate|]. cbn [peek tl] in *.
      destruct (proj2 Hnud (nud_tok_get g _ _ _ Hg Hget)) as [u1 [-> Hy1]]. destruct (proj2 Hloop _ Hy1) as [u2 [-> Hy2]].
      exists (t0 :: u1 ++ u2). split; [lnorm; reflexivity | exact Hy2].
    - (* N_atom *) intros Ht. exists []. split; [reflexivity | eapply atom_yields; eassumption].
    - (* N_prefix *) intros (Ht & Hpb & _). destruct (proj2 Hx) as [u [-> Hy]]. apply range_ok in Hspan as [-> _].
      rewrite (tpos_noeof _ Ht). exists u. split; [reflexivity | eapply Y_prefix; eassumption].
    - (* N_group *) intros Hlp. destruct (proj2 Hx) as [u [-> Hy]].
      destruct (close_bracket Hlp Hrp Hspan eq_refl) as (-> & Hrp' & ->).
      exists (u ++ [rp]). split; [lnorm; reflexivity | apply Y_group; assumption].
    - (* N_obj *) intros Hlb. apply (seq_items _ field_rel _ (fun _ _ _ h => proj2 h)) in Hfs as [us [-> Hi]].
      destruct (close_bracket Hlb Hrb Hspan eq_refl) as (-> & Hrb' & ->).
      exists (us ++ [rb]). split; [lnorm; reflexivity|].
      apply items_sep in Hi as (tss & tes & tc & HF & Hs & Ho & Hnil & _ & ->).
      rewrite <- app_assoc. eapply Y_obj; eauto.
    - (* N_map_empty *) intros Hlb. apply must_eat_kind in Hcol as [-> Hc]; [|reflexivity].
      destruct (close_bracket Hlb Hrb Hspan eq_refl) as (-> & Hrb' & ->).
      exists [c; rb]. split; [reflexivity | apply Y_map_empty; assumption].
    - (* N_list_empty *) intros Hlb.
      destruct (close_bracket Hlb Hrb Hspan eq_refl) as (-> & Hrb' & ->).
      exists [rb]. split; [reflexivity | apply (Y_list g t rb [] [] [] []); auto; repeat constructor].
    - (* N_list *) intros Hlb. destruct (proj2 Hx) as [u [-> Hy]].
      apply (seq_items _ (yields g) _ (fun _ _ _ h => proj2 h)) in Hes.
      destruct (items_cons _ _ _ _ _ _ _ Hy Hes) as (us & -> & Hi).
      destruct (close_bracket Hlb Hrb Hspan eq_refl) as (-> & Hrb' & ->).
      exists (us ++ [rb]). split; [lnorm; reflexivity|].
      apply items_sep in Hi as (tss & tes & tc & HF & Hs & Ho & Hnil & _ & ->).
      rewrite <- app_assoc. eapply Y_list; eauto.
    - (* N_map *) intros Hlb. destruct (proj2 Hk) as [u1 [-> Hy1]]. apply must_eat_kind in Hcol as [-> Hc]; [|reflexivity].
      destruct (proj2 Hv) as [u2 [-> Hy2]].
      apply (seq_items _ pair_rel _ (fun _ _ _ h => proj2 h)) in Hkvs.
      destruct (items_cons _ _ _ _ _ _ _ (pair_rel_intro k v u1 c u2 Hy1 Hc Hy2) Hkvs) as (us & E & Hi).
      destruct (close_bracket Hlb Hrb Hspan eq_refl) as (-> & Hrb' & ->).
      exists (us ++ [rb]). split; [lnorm; rewrite <- app_assoc in E; cbn [app] in E; rewrite E; reflexivity|].
      apply items_sep in Hi as (tss & tes & tc & HF & Hs & Ho & _ & _ & ->).
      rewrite <- app_assoc. eapply Y_map; eauto. discriminate.
    - (* I_pair *) destruct (proj2 Hk) as [u1 [-> Hy1]]. apply must_eat_kind in Hcol as [-> Hc]; [|reflexivity].
      destruct (proj2 Hv) as [u2 [-> Hy2]].
      exists (u1 ++ c :: u2). split; [lnorm; reflexivity | apply pair_rel_intro; assumption].
    - (* I_field *) apply must_eat_kind in Hnm as [-> Hnm]; [|reflexivity].
      apply must_eat_kind in Hcol as [-> Hc]; [|reflexivity]. destruct (proj2 Hv) as [u [-> Hy]].
      exists (nm :: c :: u). split; [reflexivity | exists nm, c, u; auto].
    - (* C_empty *) intros uc Hlp Hyc. apply must_eat_kind in Hrp as [-> Hrp]; [|reflexivity].
      apply range_ok in Hspan as [-> _]. rewrite (tpos_kind _ _ Hrp).
      exists [rp]. split; [reflexivity|]. apply (Y_call g callee uc lp rp [] [] []); auto; constructor.
    - (* C_args *) intros uc Hlp Hyc.
      apply (seq_items _ (yields g) _ (fun _ _ _ h => proj2 h)) in Hargs as [us [-> Hi]].
      apply items_sep in Hi as (tss & tes & tc & HF & Hs & _ & _ & Htc & ->). rewrite (Htc eq_refl), app_nil_r.
      apply must_eat_kind in Hrp as [-> Hrp]; [|reflexivity]. apply range_ok in Hspan as [-> _]. rewrite (tpos_kind _ _ Hrp).
      exists (tes ++ [rp]). split; [lnorm; reflexivity | eapply Y_call; eauto].
    - (* L_bin *) intros ul Ht Hyl. unfold led_tok in Ht. rewrite (led_bin_kind _ _ _ Hbin) in Ht. destruct Ht as (Ht & Hie & _).
      destruct (proj2 Hx) as [u [-> Hy]]. apply range_ok in Hspan as [-> _]. rewrite (tpos_noeof _ Ht).
      exists u. split; [reflexivity|]. eapply Y_binary; eauto. destruct l; inv Hbin; auto.
    - (* L_postfix *) intros ul (Ht & Hie & _) Hyl. apply range_ok in Hspan as [-> _]. rewrite (tpos_noeof _ Ht).
      exists []. split; [reflexivity | eapply Y_postfix; eauto].
    - (* L_question *) intros ul [Hq _] Hyl.
      destruct (proj2 Hm) as [u1 [-> Hy1]]. apply must_eat_kind in Hcol as [-> Hc]; [|reflexivity].
      destruct (proj2 Hr) as [u2 [-> Hy2]]. apply range_ok in Hspan as [-> _]. rewrite (tpos_kind _ _ Hq).
      exists (u1 ++ c :: u2). split; [lnorm; reflexivity | apply Y_ternary; assumption].
    - (* L_call *) intros ul [Hlp _] Hyl. apply (proj2 Hcall); [exact Hlp | exact Hyl].
    - (* L_sub *) intros ul [Hlb _] Hyl.
      destruct (proj2 Hi) as [u [-> Hy]]. apply must_eat_kind in Hrb as [-> Hrb]; [|reflexivity].
      apply range_ok in Hspan as [-> _]. rewrite (tpos_kind _ _ Hrb).
      exists (u ++ [rb]). split; [lnorm; reflexivity | apply Y_sub; assumption].
    - (* L_dot *) intros ul [Hdot _] Hyl.
      destruct (name_tok _ _ _ _ Hyl Hspan) as (Hts & Hnm & ->). rewrite (tpos_noeof _ Hnm).
      destruct ts as [|nm r0]; [discriminate|]. cbn [peek tl] in *.
      exists [nm]. split; [reflexivity | apply (Y_member g left ul t nm); assumption].
    - (* L_dotcall *) intros ul [Hdot _] Hyl.
      destruct (name_tok _ _ _ _ Hyl Hspan) as (Hts & Hnm & ->). rewrite (tpos_noeof _ Hnm) in *.
      destruct ts as [|nm r0]; [discriminate|]. cbn [peek tl] in *.
      apply must_eat_kind in Hlp as [-> Hlp]; [|reflexivity].
      destruct (proj2 Hcall (ul ++ [t; nm]) Hlp (Y_member g left ul t nm Hdot Hnm Hyl)) as [u [-> Hy]].
      exists (nm :: lp :: u). split; [reflexivity|]. rewrite <- app_assoc in Hy. exact Hy.
    - (* Lp_stop *) intros ul Hyl. exists []. split; [reflexivity|]. rewrite app_nil_r. exact Hyl.
    - (* Lp_step *) intros ul Hyl. pose proof (get_peek_cons _ _ _ (proj2 (go_eof g Hg)) Hget) as Hts.
      destruct ts as [|t0 r0]; [discriminate|]. cbn [peek tl] in *.
      destruct (proj2 Hled _ (led_tok_get g _ _ _ Hg Hget) Hyl) as [u1 [-> Hy1]]. destruct (proj2 Hloop _ Hy1) as [u2 [-> Hy2]].
      exists (t0 :: u1 ++ u2). split; [lnorm; reflexivity|]. rewrite <- app_assoc in Hy2. exact Hy2.
  Qed.
End Yields.

(* nothing is asked of [ts]: a token of kind K_EOF inside it is refused like the end of input *)
Lemma parse_tokens_yields : forall ops ts e,
  table_ok ops = true -> parse_tokens ops ts = POk e -> yields (new_grammar ops) e ts.
Proof.
  intros ops ts e Hok H. apply parse_tokens_run, (run_yields _ (table_ok_gram_ok ops Hok)) in H.
  destruct H as [u [-> Hy]]. rewrite app_nil_r. exact Hy.
Qed.

Lemma parse_yields : forall ops ts e,
  table_ok ops = true -> no_eof ts = true ->
  parse_tokens ops ts = POk e -> yields (new_grammar ops) e ts.
Proof. intros ops ts e Hok _. exact (parse_tokens_yields ops ts e Hok). Qed.

(* the local [attach] of [wfp] *)
Definition attach (g : grammar) (rbp lbp : Z) (e : expr) : bool :=
  Z.ltb rbp lbp && wfp g rbp e && le_inf lbp (rom g e).

Lemma attach_iff : forall g rbp lbp e,
  attach g rbp lbp e = true <-> rbp < lbp /\ wfp g rbp e = true /\ le_inf lbp (rom g e) = true.
Proof. intros g rbp lbp e. unfold attach. rewrite !andb_true_iff, Z.ltb_lt. tauto. Qed.

Lemma wfp_postfix : forall g rbp p n np x bp, infix_entry g n = Some (bp, LPostfix) ->
  wfp g rbp (EUnary p n np x false) = attach g rbp bp x.
Proof. intros g rbp p n np x bp H. cbn [wfp]. rewrite H. reflexivity. Qed.

Lemma le_inf_zmin : forall a b o, le_inf a (zmin b o) = true <-> a <= b /\ le_inf a o = true.
Proof. intros a b [c|]; cbn; rewrite ?Z.leb_le; [lia | intuition]. Qed.

Lemma led_bin_rbp : forall ld bp fx rr, led_bin ld bp = Some (fx, rr) -> rbp_of bp ld = rr.
Proof. intros ld bp fx rr H. destruct ld; inv H; reflexivity. Qed.

Lemma wfp_binary : forall g rbp p n np fx l r bp ld rr,
  infix_entry g n = Some (bp, ld) -> led_bin ld bp = Some (fx, rr) ->
  wfp g rbp (EBinary p n np fx l r) = attach g rbp bp l && wfp g rr r && infix_n_ok (EBinary p n np fx l r).
Proof.
  intros g rbp p n np fx l r bp ld rr H Hl. cbn [wfp]. rewrite H. fold (attach g rbp bp l).
  destruct ld; inv Hl; cbn [infix_n_ok N.eqb Pos.eqb andb]; rewrite ?andb_true_r, <- ?andb_assoc; reflexivity.
Qed.

Lemma wfp_ternary : forall g rbp p n np l m r,
  wfp g rbp (ETernary p n np l m r) = attach g rbp BP_COND l && wfp g 0 m && wfp g (BP_COND - 8) r.
Proof. reflexivity. Qed.

Lemma wfp_member : forall g rbp p c o n np, wfp g rbp (EMember p c o n np) = attach g rbp BP_MEMBER o.
Proof. reflexivity. Qed.

Lemma wfp_sub : forall g rbp p c v i, wfp g rbp (ESub p c v i) = attach g rbp BP_MEMBER v && wfp g 0 i.
Proof. reflexivity. Qed.

Lemma wfp_call_member : forall g rbp p c pm cm o n np args,
  wfp g rbp (ECall p c (EMember pm cm o n np) args) = attach g rbp BP_MEMBER o && forallb (wfp g 0) args.
Proof. reflexivity. Qed.

Lemma wfp_call_other : forall g rbp p c f args, ends_with_member f = false ->
  wfp g rbp (ECall p c f args) = attach g rbp BP_CALL f && forallb (wfp g 0) args.
Proof.
  intros g rbp p c f args H. destruct f; try discriminate; cbn [wfp]; fold (attach g rbp BP_CALL);
    rewrite H; cbn [negb]; rewrite andb_true_r; reflexivity.
Qed.

Lemma group_closed : forall g p x rbp,
  wfp g 0 x = true -> wfp g rbp (EGroup p x) = true /\ rom g (EGroup p x) = None.
Proof. intros g p x rbp H. split; [exact H | reflexivity]. Qed.

(* an operator token carries its name as lexeme, so that the tree's operator name finds the token's table entry *)
Definition op_lexeme (t : token) : Prop := existsb (list_eqb (t_kind t)) fixed_kinds = true \/ t_lexeme t = t_kind t.
Definition toks_ok (ts : list token) : Prop := Forall op_lexeme ts.

Lemma toks_sfx : forall r ts, sfx r ts -> toks_ok ts -> toks_ok r.
Proof. intros r ts [u ->] H. unfold toks_ok in *. apply Forall_app in H. apply H. Qed.

Lemma run_toks : forall g j, runr g j -> toks_ok (j_ts j) -> toks_ok (j_rest j).
Proof. intros g j H. apply toks_sfx, (run_suffix g), H. Qed.

Lemma must_eat_toks : forall {k ts t r}, must_eat k ts = POk (t, r) -> toks_ok ts -> toks_ok r.
Proof. intros k ts t r H. apply toks_sfx, (sfx_must_eat _ _ _ _ H). Qed.

Lemma toks_tl : forall ts, toks_ok ts -> toks_ok (tl ts).
Proof. intro ts. apply toks_sfx, sfx_tl. Qed.

Lemma op_lexeme_notfixed : forall t, op_lexeme t -> notfixed (t_kind t) -> t_lexeme t = t_kind t.
Proof. intros t [H|H] Hn; [unfold notfixed in Hn; congruence | exact H]. Qed.

Section Sound.
  Variable g : grammar.
  Hypothesis Hg : gram_ok g.

  Definition next_lbp (ts : list token) : Z := infix_lbp g (peek ts).
  (* the second clause: the led of [.] takes an immediate [(] as a method call, so a tree ending in [.name] is not
     followed by [(] *)
  Definition closed_after (e : expr) (rest : list token) : Prop :=
    le_inf (next_lbp rest) (rom g e) = true /\ (ends_with_member e = true -> kind_is (peek rest) K_LPAREN = false).

  Definition P_wfp (j : judg) : Prop :=
    match j with
    | JExpr rbp ts e rest => toks_ok ts -> wfp g rbp e = true /\ next_lbp rest <= rbp /\ closed_after e rest
    | JNud n bp t ts e rest =>
        nud_tok g n bp t -> op_lexeme t -> toks_ok ts -> (forall rbp, wfp g rbp e = true) /\ closed_after e rest
    | JLoop rbp lft ts e rest =>
        toks_ok ts -> wfp g rbp lft = true -> closed_after lft ts ->
        wfp g rbp e = true /\ next_lbp rest <= rbp /\ closed_after e rest
    | JLed l bp lft t ts e rest =>
        led_tok g l bp t -> op_lexeme t -> toks_ok ts -> forall rbp, attach g rbp bp lft = true ->
        (ends_with_member lft = true -> kind_is t K_LPAREN = false) -> infix_n_ok e = true ->
        wfp g rbp e = true /\ closed_after e rest
    | JCall callee lp ts e rest =>
        toks_ok ts -> exists p col args, e = ECall p col callee args /\ forallb (wfp g 0) args = true
    | JPair ts kv rest => toks_ok ts -> wfp g 0 (fst kv) && wfp g 0 (snd kv) = true
    | JField ts f rest => toks_ok ts -> wfp g 0 (snd f) = true
    end.

  Lemma closed_anywhere : forall e rest, rom g e = None -> ends_with_member e = false -> closed_after e rest.
  Proof. intros e rest H1 H2. split; [rewrite H1; reflexivity | rewrite H2; discriminate]. Qed.

  (* an operator's tree is closed where its last operand is, the rest binding no tighter than that operand's [rbp] *)
  Lemma closed_after_open : forall e r b rest,
    rom g e = zmin b (rom g r) -> ends_with_member e = ends_with_member r ->
    next_lbp rest <= b -> closed_after r rest -> closed_after e rest.
  Proof.
    intros e r b rest Hrom Hewm Hb [Hr Hm].
    split; [rewrite Hrom; apply le_inf_zmin; split; assumption | rewrite Hewm; exact Hm].
  Qed.

  Lemma toks_peek : forall ts, toks_ok ts -> ts = peek ts :: tl ts -> op_lexeme (peek ts).
  Proof. intros ts H E. rewrite E in H. inv H. assumption. Qed.

  Lemma next_lbp_get : forall ts bp l, get (t_kind (peek ts)) (g_infix g) = Some (bp, l) -> next_lbp ts = bp.
  Proof. intros ts bp l H. unfold next_lbp, infix_lbp. rewrite H. reflexivity. Qed.

  Lemma seq_w : forall {A} (J : list token -> A -> list token -> judg) (f : A -> bool),
    (forall ts x r, j_ts (J ts x r) = ts /\ j_rest (J ts x r) = r) ->
    (forall ts x r, P_wfp (J ts x r) -> toks_ok ts -> f x = true) ->
    forall close b ts xs rest, sep_seq (fun ts x r => runr g (J ts x r) /\ P_wfp (J ts x r)) close b ts xs rest ->
    toks_ok ts -> forallb f xs = true.
  Proof.
    intros A J f HJ Hf close. apply (seq_forallb _ _ f toks_ok (fun k ts t r H => must_eat_toks H)).
    intros ts x r [Hr HP] Htk. split; [exact (Hf _ _ _ HP Htk)|].
    destruct (HJ ts x r) as [E1 E2]. rewrite <- E2. apply (run_toks _ _ Hr). rewrite E1. exact Htk.
  Qed.

  Lemma elems_w : forall close b ts es rest,
    sep_seq (elem_of (fun j => runr g j /\ P_wfp j)) close b ts es rest -> toks_ok ts -> forallb (wfp g 0) es = true.
  Proof.
    apply (seq_w (JExpr 0) (wfp g 0)); [intros; split; reflexivity|]. intros ts x r HP Htk. apply (HP Htk).
  Qed.

  Lemma run_wfp : forall j, runr g j -> P_wfp j.
  Proof.
    intros j H. induction H as [j s] using run_induction. destruct s; cbn [P_wfp] in *.
    - (* R_expr *) intros Htk. pose proof (get_peek_cons _ _ _ (proj1 (go_eof g Hg)) Hget) as Hts.
      destruct (proj2 Hnud (nud_tok_get g _ _ _ Hg Hget) (toks_peek _ Htk Hts) (toks_tl _ Htk)) as [Hw Hc].
      apply (proj2 Hloop); [exact (run_toks _ _ (proj1 Hnud) (toks_tl _ Htk)) | apply Hw | exact Hc].
    - (* N_atom *) intros _ _ _. apply nud_atom_atom in Hatom.
      destruct e; try discriminate; (split; [reflexivity | apply closed_anywhere; reflexivity]).
    - (* N_prefix *) intros (_ & Hpb & Hnf) Hlx Htk. rewrite <- (op_lexeme_notfixed t Hlx Hnf) in Hpb.
      destruct (proj2 Hx Htk) as [Hw [Hstop Hcl]].
      split.
      + intro rbp. cbn [wfp]. rewrite Hpb. exact Hw.
      + eapply closed_after_open; [cbn [rom]; rewrite Hpb; reflexivity | reflexivity | exact Hstop | exact Hcl].
    - (* N_group *) intros _ _ Htk. destruct (proj2 Hx Htk) as [Hw _].
      split; [intro; exact Hw | apply closed_anywhere; reflexivity].
    - (* N_obj *) intros _ _ Htk. split; [intro; cbn [wfp] | apply closed_anywhere; reflexivity].
      exact (seq_w JField (fun f => wfp g 0 (snd f)) (fun _ _ _ => conj eq_refl eq_refl) (fun _ _ _ HP => HP) _ _ _ _ _ Hfs Htk).
    - (* N_map_empty *) split; [reflexivity | apply closed_anywhere; reflexivity].
    - (* N_list_empty *) split; [reflexivity | apply closed_anywhere; reflexivity].
    - (* N_list *) intros _ _ Htk. destruct (proj2 Hx Htk) as [Hw _].
      split; [intro; cbn [wfp forallb]; rewrite Hw | apply closed_anywhere; reflexivity].
      exact (elems_w _ _ _ _ _ Hes (run_toks _ _ (proj1 Hx) Htk)).
    - (* N_map *) intros _ _ Htk. destruct (proj2 Hk Htk) as [Hw1 _].
      pose proof (must_eat_toks Hcol (run_toks _ _ (proj1 Hk) Htk)) as Htk2. destruct (proj2 Hv Htk2) as [Hw2 _].
      split; [intro; cbn [wfp forallb fst snd]; rewrite Hw1, Hw2 | apply closed_anywhere; reflexivity].
      exact (seq_w JPair (fun kv => wfp g 0 (fst kv) && wfp g 0 (snd kv)) (fun _ _ _ => conj eq_refl eq_refl)
               (fun _ _ _ HP => HP) _ _ _ _ _ Hkvs (run_toks _ _ (proj1 Hv) Htk2)).
    - (* I_pair *) intros Htk. destruct (proj2 Hk Htk) as [Hw1 _].
      destruct (proj2 Hv (must_eat_toks Hcol (run_toks _ _ (proj1 Hk) Htk))) as [Hw2 _].
      cbn [fst snd]. rewrite Hw1, Hw2. reflexivity.
    - (* I_field *) intros Htk. apply (proj2 Hv (must_eat_toks Hcol (must_eat_toks Hnm Htk))).
    - (* C_empty *) intros _. do 3 eexists. split; reflexivity.
    - (* C_args *) intros Htk. do 3 eexists. split; [reflexivity | exact (elems_w _ _ _ _ _ Hargs Htk)].
    - (* L_bin *) intros Ht Hlx Htk rbp Hat Hml Hn. unfold led_tok in Ht. rewrite (led_bin_kind _ _ _ Hbin) in Ht.
      destruct Ht as (_ & Hie & Hnf). rewrite <- (op_lexeme_notfixed t Hlx Hnf) in Hie.
      destruct (proj2 Hx Htk) as [Hw [Hstop Hcl]].
      split.
      + rewrite (wfp_binary _ _ _ _ _ _ _ _ _ _ _ Hie Hbin), Hat, Hw, Hn. reflexivity.
      + eapply closed_after_open; [cbn [rom]; rewrite Hie, (led_bin_rbp _ _ _ _ Hbin); reflexivity | reflexivity | exact Hstop | exact Hcl].
    - (* L_postfix *) intros (_ & Hie & Hnf) Hlx Htk rbp Hat Hml Hn. split; [|apply closed_anywhere; reflexivity].
      rewrite (wfp_postfix _ _ _ _ _ _ bp); [exact Hat|]. rewrite (op_lexeme_notfixed t Hlx Hnf). exact Hie.
    - (* L_question *) intros [_ ->] Hlx Htk rbp Hat Hml Hn.
      destruct (proj2 Hm Htk) as [Hw1 _].
      destruct (proj2 Hr (must_eat_toks Hcol (run_toks _ _ (proj1 Hm) Htk))) as [Hw2 [Hstop Hcl]].
      split.
      + rewrite wfp_ternary, Hat, Hw1, Hw2. reflexivity.
      + eapply closed_after_open; [reflexivity | reflexivity | exact Hstop | exact Hcl].
    - (* L_call: [left] does not end in a member, or the led of the dot would have taken this parenthesis *)
      intros [[Hk _] ->] Hlx Htk rbp Hat Hml Hn.
      destruct (proj2 Hcall Htk) as [p [col [args [-> Hargs]]]].
      split; [|apply closed_anywhere; reflexivity].
      rewrite wfp_call_other, Hat, Hargs; [reflexivity|].
      destruct (ends_with_member left); [|reflexivity]. specialize (Hml eq_refl). unfold kind_is in Hml.
      rewrite Hk in Hml. discriminate.
    - (* L_sub *) intros [_ ->] Hlx Htk rbp Hat Hml Hn.
      destruct (proj2 Hi Htk) as [Hw _].
      split; [|apply closed_anywhere; reflexivity]. rewrite wfp_sub, Hat, Hw. reflexivity.
    - (* L_dot *) intros [_ ->] Hlx Htk rbp Hat Hml Hn.
      split; [rewrite wfp_member; exact Hat|].
      split; [reflexivity|]. intros _. exact Hnolp.
    - (* L_dotcall *) intros [_ ->] Hlx Htk rbp Hat Hml Hn.
      destruct (proj2 Hcall (must_eat_toks Hlp (toks_tl _ Htk))) as [p' [col [args [-> Hargs]]]].
      split; [|apply closed_anywhere; reflexivity].
      rewrite wfp_call_member, Hat, Hargs. reflexivity.
    - (* Lp_stop *) intros Htk Hw Hc. split; [exact Hw|]. split; [|exact Hc].
      apply Z.ltb_ge in Hstop. exact Hstop.
    - (* Lp_step: the loop's test and what is known of [left] are exactly [attach] *)
      intros Htk Hw [Hrom Hewm]. pose proof (get_peek_cons _ _ _ (proj2 (go_eof g Hg)) Hget) as Hts.
      fold (next_lbp ts) in Hlt. rewrite (next_lbp_get _ _ _ Hget) in Hlt, Hrom.
      assert (Hat : attach g rbp bp left = true) by (unfold attach; rewrite Hlt, Hw, Hrom; reflexivity).
      destruct (proj2 Hled (led_tok_get g _ _ _ Hg Hget) (toks_peek _ Htk Hts) (toks_tl _ Htk) rbp Hat Hewm Hok) as [Hw' Hc'].
      apply (proj2 Hloop); [exact (run_toks _ _ (proj1 Hled) (toks_tl _ Htk)) | exact Hw' | exact Hc'].
  Qed.
End Sound.

Lemma parse_tokens_wfp : forall ops ts e,
  table_ok ops = true -> toks_ok ts -> parse_tokens ops ts = POk e -> wfp (new_grammar ops) 0 e = true.
Proof.
  intros ops ts e Hok Hlx H. apply parse_tokens_run, (run_wfp _ (table_ok_gram_ok ops Hok)) in H.
  apply H. exact Hlx.
Qed.

Lemma parse_wfp : forall ops ts e,
  table_ok ops = true -> no_eof ts = true ->
  Forall (fun t => existsb (list_eqb (t_kind t)) fixed_kinds = true \/ t_lexeme t = t_kind t) ts ->
  parse_tokens ops ts = POk e -> wfp (new_grammar ops) 0 e = true.
Proof. intros ops ts e Hok _. exact (parse_tokens_wfp ops ts e Hok). Qed.

Ltac solve_in := cbn [In]; repeat rewrite in_app_iff; cbn [In]; tauto.

Lemma must_eat_is : forall k t r, is_kind k t -> must_eat k (t :: r) = POk (t, r).
Proof. intros k t r [H _]. rewrite must_eat_eq. unfold kind_is. cbn [peek tl]. rewrite H, list_eqb_refl. reflexivity. Qed.

Lemma kind_is_other : forall k' k t, is_kind k' t -> list_eqb k' k = false -> kind_is t k = false.
Proof. intros k' k t [H _] Hk. unfold kind_is. rewrite H. exact Hk. Qed.

Lemma kind_is_is : forall k t, is_kind k t -> kind_is t k = true.
Proof. intros k t [H _]. unfold kind_is. rewrite H. apply list_eqb_refl. Qed.

Section Complete.
  Variable g : grammar.
  Hypothesis Hg : gram_ok g.
  (* [range] with [Z.le] for completeness, [rng_free] with the trivial order for uniqueness *)
  Variable rng : pos -> pos -> pres pos.
  Variable ordr : Z -> Z -> Prop.
  Hypothesis Hrng : forall a b, ordr (p_idx a) (p_idx b) -> rng a b = POk (span a b).

  Definition tR (a b : token) : Prop := ordr (Z.of_N (t_idx a)) (Z.of_N (t_idx b)).
  Definition toks_fit (ts : list token) : Prop := toks_ok ts /\ StronglySorted tR ts.

  Lemma toks_fit_app : forall a b, toks_fit (a ++ b) -> toks_fit a /\ toks_fit b /\ (forall x y, In x a -> In y b -> tR x y).
  Proof.
    intros a b [H1 H2]. apply Forall_app in H1 as [? ?]. apply StronglySorted_app_inv in H2 as (? & ? & ?).
    repeat split; assumption.
  Qed.

  Lemma toks_fit_cons : forall t r, toks_fit (t :: r) -> op_lexeme t /\ toks_fit r /\ (forall y, In y r -> tR t y).
  Proof.
    intros t r [Hlx Hso]. inv Hlx. apply StronglySorted_inv in Hso as [Hso Hall]. repeat split; auto.
    rewrite Forall_forall in Hall. exact Hall.
  Qed.

  Lemma toks_fit_app_cons : forall a t b, toks_fit (a ++ t :: b) ->
    toks_fit a /\ op_lexeme t /\ toks_fit b /\ (forall x y, In x a -> In y (t :: b) -> tR x y).
  Proof. intros a t b H. apply toks_fit_app in H as (Ha & H & HR). apply toks_fit_cons in H as (Ht & Hb & _). auto. Qed.

  Lemma toks_fit_bracket : forall lb us rb, toks_fit (lb :: us ++ [rb]) -> toks_fit us /\ tR lb rb.
  Proof.
    intros lb us rb H. apply toks_fit_cons in H as (_ & H & HR). apply toks_fit_app in H as (H & _ & _).
    split; [exact H | apply HR; solve_in].
  Qed.

  Lemma yields_hd_in : forall e u, yields g e u ->
    In (hd eof_tok u) u /\ p_idx (expr_pos e) = Z.of_N (t_idx (hd eof_tok u)).
  Proof.
    intros e u H. apply yields_span in H as [Hne ->]. destruct u; [congruence|]. split; [left|]; reflexivity.
  Qed.

  Lemma rng_yields : forall a ua b ub w, yields g a ua -> yields g b ub ->
    (forall x y, In x ua -> In y w -> tR x y) -> incl ub w ->
    rng (expr_pos a) (expr_pos b) = POk (span (expr_pos a) (expr_pos b)).
  Proof.
    intros a ua b ub w Ha Hb HR Hi. destruct (yields_hd_in _ _ Ha) as [Ia Ea], (yields_hd_in _ _ Hb) as [Ib Eb].
    apply Hrng. rewrite Ea, Eb. apply HR; auto.
  Qed.

  Lemma idx_tpos : forall t, is_eof t = false -> p_idx (tpos t) = Z.of_N (t_idx t).
  Proof. intros t H. rewrite (tpos_noeof _ H). reflexivity. Qed.

  Lemma rng_yields_tok : forall a ua t w, yields g a ua -> is_eof t = false ->
    (forall x y, In x ua -> In y w -> tR x y) -> In t w ->
    rng (expr_pos a) (tpos t) = POk (span (expr_pos a) (tpos t)).
  Proof.
    intros a ua t w Ha Ht HR Hi. destruct (yields_hd_in _ _ Ha) as [Ia Ea].
    apply Hrng. rewrite Ea, (idx_tpos _ Ht). apply HR; auto.
  Qed.

  Lemma rng_tok_yields : forall t b ub, is_eof t = false -> yields g b ub -> (forall y, In y ub -> tR t y) ->
    rng (tpos t) (expr_pos b) = POk (span (tpos t) (expr_pos b)).
  Proof.
    intros t b ub Ht Hb HR. destruct (yields_hd_in _ _ Hb) as [Ib Eb].
    apply Hrng. rewrite Eb, (idx_tpos _ Ht). apply HR; auto.
  Qed.

  Lemma rng_toks : forall ka a kb b, is_kind ka a -> is_kind kb b -> tR a b ->
    rng (tpos a) (tpos b) = POk (span (tok_pos a) (tok_pos b)).
  Proof. intros ka a kb b Ha Hb H. rewrite (tpos_kind _ _ Ha), (tpos_kind _ _ Hb). apply Hrng. exact H. Qed.

  (* for a fixed kind the nud is found by search, so that the cases of [yields_first] need not name it *)
  Definition fixed_nuds : list nud := [NIdent; NTrue; NFalse; NNum; NStr; NTime; NListMap; NObj; NGroup].

  Definition first_nud (u : list token) : Prop :=
    match u with h :: _ => exists bp n, get (t_kind h) (g_prefix g) = Some (bp, n) | [] => False end.

  Lemma first_nud_app : forall a b, first_nud a -> first_nud (a ++ b).
  Proof. intros [|h a] b H; [destruct H | exact H]. Qed.

  Definition nud_has_kind (k : list N) (n : nud) : bool :=
    match nud_kind n with Some k' => list_eqb k k' | None => false end.

  Lemma is_kind_nud : forall k t r, is_kind k t -> existsb (nud_has_kind k) fixed_nuds = true -> first_nud (t :: r).
  Proof.
    intros k t r [Hk _] Hex. apply existsb_exists in Hex as (n & _ & Hn). unfold nud_has_kind in Hn.
    destruct (nud_kind n) as [k'|] eqn:E; [|discriminate]. apply list_eqb_eq in Hn. subst k'.
    exists 0, n. rewrite Hk. apply (go_fixed_prefix g Hg). exact E.
  Qed.

  Lemma prefix_bp_get : forall k bp, prefix_bp g k = Some bp -> get k (g_prefix g) = Some (bp, NPrefix).
  Proof.
    intros k bp H. unfold prefix_bp in H. destruct (get k (g_prefix g)) as [[b n]|]; [|discriminate].
    destruct n; inv H. reflexivity.
  Qed.

  Lemma yields_first : forall e u, yields g e u -> first_nud u.
  Proof.
    intros e u H. induction H.
    (* the string begins with that of a sub-expression, with a token of a fixed kind, or with a prefix operator *)
    all: try (apply first_nud_app; assumption).
    all: try (eapply is_kind_nud; [eassumption | reflexivity]).
    do 2 eexists. apply prefix_bp_get. eassumption.
  Qed.

  Definition closers : list (list N) := [K_RBRACKET; K_RBRACE; K_RPAREN; K_COLON; K_COMMA].
  Definition closer (k : list N) : Prop := existsb (list_eqb k) closers = true.

  Lemma closers_all : forall P : list N -> Prop, Forall P closers -> forall k, closer k -> P k.
  Proof.
    intros P H k Hk. apply existsb_exists in Hk as (x & Hx & E). apply list_eqb_eq in E. subst x.
    exact (proj1 (Forall_forall _ _) H k Hx).
  Qed.

  Lemma closer_fixed : forall k, closer k -> existsb (list_eqb k) fixed_kinds = true.
  Proof. apply closers_all. repeat constructor. Qed.

  Lemma nud_not_closer : forall h bp n K, get (t_kind h) (g_prefix g) = Some (bp, n) -> closer K ->
    list_eqb (t_kind h) K = false.
  Proof.
    intros h bp n K H HK. destruct (nud_kind n) as [k|] eqn:E.
    - destruct (go_prefix_fixed g _ _ _ _ Hg H E) as [-> _]. revert K HK.
      destruct n; inv E; apply closers_all; repeat constructor.
    - destruct n; try discriminate. destruct (go_prefix_op g _ _ Hg H) as [Hnf _].
      rewrite list_eqb_sym. exact (notfixed_neq _ _ Hnf (closer_fixed _ HK)).
  Qed.

  Lemma closer_no_infix : forall K, closer K -> get K (g_infix g) = None.
  Proof.
    intros K HK. destruct (get K (g_infix g)) as [[bp l]|] eqn:E; [|reflexivity]. exfalso.
    destruct (led_kind l) as [[k' bp']|] eqn:El.
    - destruct (go_infix_fixed g _ _ _ _ _ Hg E El) as [-> _]. destruct l; inv El; discriminate.
    - destruct (go_infix_op g _ _ _ Hg E El) as [Hnf _]. unfold notfixed in Hnf.
      rewrite (closer_fixed _ HK) in Hnf. discriminate.
  Qed.

  Lemma next_lbp_closer : forall t rest, closer (t_kind t) -> next_lbp g (t :: rest) = 0.
  Proof. intros t rest H. unfold next_lbp, infix_lbp. cbn [peek]. rewrite (closer_no_infix _ H). reflexivity. Qed.

  Lemma next_lbp_nil : next_lbp g [] = 0.
  Proof. unfold next_lbp, infix_lbp. cbn [peek]. change (t_kind eof_tok) with K_EOF.
    destruct (go_eof g Hg) as [_ Hi]. rewrite Hi. reflexivity. Qed.

  Lemma rom_nonneg : forall e, le_inf 0 (rom g e) = true.
  Proof.
    induction e; cbn [rom]; try reflexivity.
    - destruct prefix; [|reflexivity]. destruct (prefix_bp g name) as [bp|] eqn:E; [|reflexivity].
      apply le_inf_zmin; split; [|exact IHe]. apply prefix_bp_get in E. apply (go_prefix_op g _ _ Hg E).
    - unfold infix_entry. destruct (get name (g_infix g)) as [[bp ld]|] eqn:E; [|reflexivity].
      apply le_inf_zmin; split; [|exact IHe2]. destruct (led_kind ld) as [[k' bp']|] eqn:El.
      + destruct (go_infix_fixed g _ _ _ _ _ Hg E El) as [_ ->]. destruct ld; inv El; cbv; discriminate.
      + destruct (go_infix_op g _ _ _ Hg E El) as (_ & H0 & H8). destruct ld; cbn [rbp_of]; try lia.
        specialize (H8 eq_refl). lia.
    - apply le_inf_zmin; split; [cbv; discriminate | exact IHe3].
  Qed.

  Lemma closed_after_closer : forall e t rest, closer (t_kind t) -> closed_after g e (t :: rest).
  Proof.
    intros e t rest H. split.
    - rewrite (next_lbp_closer _ _ H). apply rom_nonneg.
    - intros _. exact (closers_all (fun k => list_eqb k K_LPAREN = false) ltac:(repeat constructor) _ H).
  Qed.

  Lemma closed_after_nil : forall e, closed_after g e [].
  Proof. intro e. split; [rewrite next_lbp_nil; apply rom_nonneg | intros _; reflexivity]. Qed.

  Lemma R_expr_cons : forall rbp t ts1 bp n lft ts2 e rest,
    get (t_kind t) (g_prefix g) = Some (bp, n) -> run g rng (JNud n bp t ts1 lft ts2) ->
    run g rng (JLoop rbp lft ts2 e rest) -> run g rng (JExpr rbp (t :: ts1) e rest).
  Proof. intros. apply Run. eapply (R_expr g rng _ rbp (t :: ts1)); eauto. Qed.

  Lemma Lp_step_cons : forall rbp lft t ts1 bp l left' ts2 e rest,
    rbp < bp -> get (t_kind t) (g_infix g) = Some (bp, l) ->
    run g rng (JLed l bp lft t ts1 left' ts2) -> infix_n_ok left' = true ->
    run g rng (JLoop rbp left' ts2 e rest) -> run g rng (JLoop rbp lft (t :: ts1) e rest).
  Proof.
    intros rbp lft t ts1 bp l left' ts2 e rest Hlt Hget Hled Hok Hloop.
    apply Run. eapply (Lp_step g rng _ rbp lft (t :: ts1)); try eassumption.
    unfold infix_lbp. cbn [peek]. rewrite Hget. apply Z.ltb_lt. exact Hlt.
  Qed.

  (* in continuation form: whatever the infix loop derives after [e], the parser started in front of [e] derives *)
  Definition completes (e : expr) : Prop :=
    forall rbp used rest e' rest',
      yields g e used -> wfp g rbp e = true -> toks_fit used -> closed_after g e rest ->
      run g rng (JLoop rbp e rest e' rest') -> run g rng (JExpr rbp (used ++ rest) e' rest').

  Lemma completes_stop : forall e r used rest,
    completes e -> yields g e used -> wfp g r e = true -> toks_fit used -> closed_after g e rest -> next_lbp g rest <= r ->
    run g rng (JExpr r (used ++ rest) e rest).
  Proof. intros e r used rest HC Hy Hw Htk Hcl Hle. apply HC; auto. apply Run, Lp_stop, Z.ltb_ge, Hle. Qed.

  Lemma completes_before_closer : forall e used k t rest,
    completes e -> yields g e used -> wfp g 0 e = true -> toks_fit used -> is_kind k t -> closer k ->
    run g rng (JExpr 0 (used ++ t :: rest) e (t :: rest)).
  Proof.
    intros e used k t rest HC Hy Hw Htk [Hk _] Hcl. rewrite <- Hk in Hcl. apply completes_stop; auto.
    - apply closed_after_closer; exact Hcl.
    - rewrite (next_lbp_closer _ _ Hcl). lia.
  Qed.

  (* the hypotheses mirror the JLed clause of [P_wfp] *)
  Lemma completes_attach : forall left ul t ts1 bp l rbp left' ts2 e' rest',
    completes left -> yields g left ul -> toks_fit ul -> get (t_kind t) (g_infix g) = Some (bp, l) ->
    attach g rbp bp left = true -> (ends_with_member left = true -> kind_is t K_LPAREN = false) ->
    run g rng (JLed l bp left t ts1 left' ts2) -> infix_n_ok left' = true ->
    run g rng (JLoop rbp left' ts2 e' rest') -> run g rng (JExpr rbp (ul ++ t :: ts1) e' rest').
  Proof.
    intros left ul t ts1 bp l rbp left' ts2 e' rest' HC Hy Htk Hget Hat Hml Hled Hok Hloop.
    apply attach_iff in Hat as (Hlt & Hw & Hr). apply HC; auto.
    - split; [rewrite (next_lbp_get g (t :: ts1) _ _ Hget); exact Hr | exact Hml].
    - eapply Lp_step_cons; eauto.
  Qed.

  (* of the four leds of a fixed kind only the parenthesis cares whether [left] ends in a member *)
  Lemma completes_attach_fixed : forall left ul t ts1 k bp l rbp left' ts2 e' rest',
    completes left -> yields g left ul -> toks_fit ul -> led_kind l = Some (k, bp) -> is_kind k t ->
    attach g rbp bp left = true -> (ends_with_member left = true -> list_eqb k K_LPAREN = false) ->
    run g rng (JLed l bp left t ts1 left' ts2) -> infix_n_ok left' = true ->
    run g rng (JLoop rbp left' ts2 e' rest') -> run g rng (JExpr rbp (ul ++ t :: ts1) e' rest').
  Proof.
    intros left ul t ts1 k bp l rbp left' ts2 e' rest' HC Hy Htk Hl Hk Hat Hml. apply (completes_attach left ul); auto.
    - rewrite (proj1 Hk). exact (go_fixed_infix g Hg _ _ _ Hl).
    - intros E. exact (kind_is_other _ _ _ Hk (Hml E)).
  Qed.

  Lemma R_expr_fixed : forall n k t ts1 e ts2 rbp e' rest',
    nud_kind n = Some k -> is_kind k t -> run g rng (JNud n 0 t ts1 e ts2) ->
    run g rng (JLoop rbp e ts2 e' rest') -> run g rng (JExpr rbp (t :: ts1) e' rest').
  Proof.
    intros n k t ts1 e ts2 rbp e' rest' Hn [Hk _] Hnud Hloop. eapply R_expr_cons; eauto.
    rewrite Hk. apply (go_fixed_prefix g Hg). exact Hn.
  Qed.

  Lemma kind_is_hd_false : forall e u rest K, yields g e u -> closer K -> kind_is (peek (u ++ rest)) K = false.
  Proof.
    intros e u rest K Hy HK. apply yields_first in Hy. destruct u as [|h r]; [destruct Hy|].
    destruct Hy as (bp & n & Hget). cbn [app peek]. unfold kind_is. eapply nud_not_closer; eauto.
  Qed.

  Lemma items_seq : forall {A} (R : list token -> A -> list token -> Prop) (Y : A -> list token -> Prop) (W : A -> Prop)
      close k,
    (forall x u kt t rest, W x -> Y x u -> toks_fit u -> is_kind kt t -> closer kt ->
       at_close close (u ++ t :: rest) = false /\ R (u ++ t :: rest) x (t :: rest)) ->
    list_eqb k K_COMMA = false -> closer k -> (forall c, close = Some c -> c = k) ->
    forall xs us, items (trails close) Y xs us -> forall t rest,
      Forall W xs -> toks_fit us -> is_kind k t -> (close = None -> xs <> []) ->
      sep_seq R close false (us ++ t :: rest) xs (t :: rest).
  Proof.
    intros A R Y W close k Hitem Hk Hcl Hclose.
    induction 1 as [|x u Hx|x u c xs us Hx Hc Hi IH Hor]; intros t rest HW Htk Ht Hnn.
    - destruct close as [c|]; [|exfalso; exact (Hnn eq_refl eq_refl)].
      apply S_close. cbn [at_close app peek]. rewrite (Hclose c eq_refl). apply (kind_is_is _ _ Ht).
    - inv HW. destruct (Hitem x u k t rest) as [Hnc HR]; auto.
      eapply S_item; [exact Hnc | exact HR | apply S_stop, (kind_is_other _ _ _ Ht Hk)].
    - inv HW. apply toks_fit_app_cons in Htk as (Htk1 & _ & Htk2 & _). rewrite <- app_assoc.
      destruct (Hitem x u K_COMMA c (us ++ t :: rest)) as [Hnc HR]; auto; [reflexivity|].
      eapply S_item; [exact Hnc | exact HR | eapply S_comma; [apply (must_eat_is _ _ _ Hc)|]].
      apply IH; auto. intros E. destruct Hor as [Htr|Hne]; [rewrite E in Htr; discriminate | exact Hne].
  Qed.

  Definition Wexpr (e : expr) : Prop := completes e /\ wfp g 0 e = true.

  Lemma elem_item : forall close, (forall c, close = Some c -> closer c) ->
    forall e u kt t rest, Wexpr e -> yields g e u -> toks_fit u -> is_kind kt t -> closer kt ->
    at_close close (u ++ t :: rest) = false /\ elem_of (run g rng) (u ++ t :: rest) e (t :: rest).
  Proof.
    intros close Hcl e u kt t rest [HC Hw] Hy Htk Ht Hkt. split; [|eapply completes_before_closer; eassumption].
    destruct close as [c|]; [|reflexivity]. eapply kind_is_hd_false; [exact Hy | exact (Hcl c eq_refl)].
  Qed.

  Lemma pair_item_c : forall kv u kt t rest,
    Wexpr (fst kv) /\ Wexpr (snd kv) -> pair_rel g kv u -> toks_fit u -> is_kind kt t -> closer kt ->
    at_close (Some K_RBRACKET) (u ++ t :: rest) = false /\ pair_of (run g rng) (u ++ t :: rest) kv (t :: rest).
  Proof.
    intros [k v] u kt t rest [[HCk Hwk] [HCv Hwv]] (uk & c & uv & Hc & Hyk & Hyv & ->) Htk Ht Hcl. cbn [fst snd] in *.
    apply toks_fit_app_cons in Htk as (Htk1 & _ & Htk2 & _).
    rewrite <- app_assoc. cbn [app]. split; [eapply kind_is_hd_false; [exact Hyk | reflexivity]|].
    apply Run. eapply I_pair; [eapply completes_before_closer; try eassumption; reflexivity | apply (must_eat_is _ _ _ Hc)|].
    eapply completes_before_closer; eassumption.
  Qed.

  Lemma field_item_c : forall f u kt t rest,
    Wexpr (snd f) -> field_rel g f u -> toks_fit u -> is_kind kt t -> closer kt ->
    at_close (Some K_RBRACE) (u ++ t :: rest) = false /\ field_of (run g rng) (u ++ t :: rest) f (t :: rest).
  Proof.
    intros [fn v] u kt t rest [HCv Hwv] (nm & c & uv & Hnm & Hc & Hfn & Hyv & ->) Htk Ht Hcl. cbn [fst snd] in *. subst fn.
    apply toks_fit_cons in Htk as (_ & Htk & _). apply toks_fit_cons in Htk as (_ & Htk & _). cbn [app].
    split; [apply (kind_is_other _ _ _ Hnm); reflexivity|].
    apply Run. eapply I_field; [apply (must_eat_is _ _ _ Hnm) | apply (must_eat_is _ _ _ Hc) | eapply completes_before_closer; eassumption].
  Qed.

  Lemma call_complete : forall callee lp args tss targs rp rest p,
    Forall completes args -> Forall2 (yields g) args tss -> sep_by (is_kind K_COMMA) tss targs ->
    forallb (wfp g 0) args = true -> toks_fit targs -> is_kind K_RPAREN rp ->
    rng (expr_pos callee) (tpos rp) = POk p ->
    run g rng (JCall callee lp (targs ++ rp :: rest) (ECall p (tcol lp) callee args) rest).
  Proof.
    intros callee lp args tss targs rp rest p HC HF Hsep Hw Htk Hrp Hr. apply Run.
    destruct args as [|a args].
    - inv HF. apply sep_by_nil_inv in Hsep. subst targs. eapply C_empty; [apply (must_eat_is _ _ _ Hrp) | exact Hr].
    - eapply C_args; [| | apply (must_eat_is _ _ _ Hrp) | exact Hr].
      + inv HF. inv Hsep; [|rewrite <- app_assoc]; eapply kind_is_hd_false; try eassumption; reflexivity.
      + assert (Hi : items false (yields g) (a :: args) targs).
        { rewrite <- (app_nil_r targs). eapply (sep_items false); try eassumption; [left|intros _|intros _]; reflexivity. }
        eapply (items_seq _ (yields g) Wexpr None K_RPAREN (elem_item None ltac:(discriminate))); try eassumption;
          try reflexivity; try discriminate. apply Forall_forallb; assumption.
  Qed.

  Lemma must_eat_excl : forall k k' ts p, must_eat k ts = POk p -> list_eqb k k' = false -> kind_is (peek ts) k' = false.
  Proof.
    intros k k' ts [t r] H Hk. apply must_eat_inv in H as (_ & _ & E).
    unfold kind_is in *. apply list_eqb_eq in E. rewrite E. exact Hk.
  Qed.

  Lemma list_nud : forall lb rb es us rest bp,
    is_kind K_LBRACKET lb -> is_kind K_RBRACKET rb -> items true (yields g) es us -> Forall completes es ->
    forallb (wfp g 0) es = true -> toks_fit us -> tR lb rb ->
    run g rng (JNud NListMap bp lb (us ++ rb :: rest) (EList (span (tok_pos lb) (tok_pos rb)) es) rest).
  Proof.
    intros lb rb es us rest bp Hlb Hrb Hi HC Hw Htk HR. pose proof (rng_toks _ _ _ _ Hlb Hrb HR) as Hr.
    pose proof (must_eat_is _ _ rest Hrb) as Hm. apply Run. destruct es as [|e es].
    { inv Hi. eapply N_list_empty; [apply (kind_is_other _ K_COLON _ Hrb eq_refl) | exact Hm | exact Hr]. }
    assert (Hq : sep_seq (elem_of (run g rng)) (Some K_RBRACKET) false (us ++ rb :: rest) (e :: es) (rb :: rest)).
    { eapply (items_seq _ (yields g) Wexpr (Some K_RBRACKET) K_RBRACKET (elem_item (Some K_RBRACKET) ltac:(intros c E; inv E; reflexivity))); try eassumption;
        try reflexivity; try discriminate; [intros c E; inv E; reflexivity | apply Forall_forallb; assumption]. }
    (* the nud parses the first item itself: that is the first step of [Hq] *)
    inv Hq.
    assert (Hnc : kind_is (peek ts1) K_COLON = false).
    { match goal with H : sep_seq _ _ true ts1 _ _ |- _ => inv H end;
        [apply (kind_is_other _ K_COLON _ Hrb eq_refl) | eapply must_eat_excl; [eassumption | reflexivity]]. }
    eapply N_list; try eassumption.
    inv Hi; rewrite <- ?app_assoc; eapply kind_is_hd_false; try eassumption; reflexivity.
  Qed.

  Lemma map_nud : forall lb rb kvs us rest bp,
    is_kind K_LBRACKET lb -> is_kind K_RBRACKET rb -> kvs <> [] -> items true (pair_rel g) kvs us ->
    Forall (fun kv => completes (fst kv) /\ completes (snd kv)) kvs ->
    forallb (fun kv => wfp g 0 (fst kv) && wfp g 0 (snd kv)) kvs = true -> toks_fit us -> tR lb rb ->
    run g rng (JNud NListMap bp lb (us ++ rb :: rest) (EMap (span (tok_pos lb) (tok_pos rb)) kvs) rest).
  Proof.
    intros lb rb kvs us rest bp Hlb Hrb Hnn Hi HC Hw Htk HR. pose proof (rng_toks _ _ _ _ Hlb Hrb HR) as Hr.
    pose proof (must_eat_is _ _ rest Hrb) as Hm. apply Run.
    assert (HW : Forall (fun kv => Wexpr (fst kv) /\ Wexpr (snd kv)) kvs).
    { eapply Forall_impl; [|apply (Forall_forallb _ _ _ HC Hw)].
      intros kv [[H1 H2] H3]. apply andb_true_iff in H3 as [H3 H4]. split; (split; assumption). }
    assert (Hq : sep_seq (pair_of (run g rng)) (Some K_RBRACKET) false (us ++ rb :: rest) kvs (rb :: rest)).
    { eapply (items_seq _ (pair_rel g) _ (Some K_RBRACKET) K_RBRACKET pair_item_c); try eassumption;
        try reflexivity; try discriminate. intros c E; inv E; reflexivity. }
    inv Hq; [congruence|].
    match goal with H : pair_of _ _ _ _ |- _ => destruct H as [s]; inv s end.
    eapply N_map; try eassumption.
    inv Hi; match goal with H : pair_rel g _ _ |- _ => destruct H as (uk & cc & uv & _ & Hyk & _ & ->) end;
      rewrite <- ?app_assoc; eapply kind_is_hd_false; try eassumption; reflexivity.
  Qed.

  Lemma fields_complete : forall fs us rb rest, items true (field_rel g) fs us ->
    Forall (fun f => completes (snd f)) fs -> forallb (fun f => wfp g 0 (snd f)) fs = true -> toks_fit us ->
    is_kind K_RBRACE rb -> sep_seq (field_of (run g rng)) (Some K_RBRACE) false (us ++ rb :: rest) fs (rb :: rest).
  Proof.
    intros fs us rb rest Hi HC Hw Htk Hrb.
    eapply (items_seq _ (field_rel g) _ (Some K_RBRACE) K_RBRACE field_item_c); try eassumption;
      try reflexivity; try discriminate; [intros c E; inv E; reflexivity | apply Forall_forallb; assumption].
  Qed.

  (* the induction needs more of a member [o.name]: in [o.name(args)] the led of the dot builds the call, so that case
     starts from [completes o] *)
  Definition completes_with_object (e : expr) : Prop := completes e /\ match e with EMember _ _ o _ _ => completes o | _ => True end.

  Lemma Forall_completes : forall es, Forall completes_with_object es -> Forall completes es.
  Proof. intros es H. eapply Forall_impl; [|exact H]. intros a [Ha _]. exact Ha. Qed.

  Lemma wfp_call_cases : forall rbp p col f args, wfp g rbp (ECall p col f args) = true ->
    forallb (wfp g 0) args = true /\
    ((exists pm cm o nm np, f = EMember pm cm o nm np /\ attach g rbp BP_MEMBER o = true) \/
     (attach g rbp BP_CALL f = true /\ ends_with_member f = false)).
  Proof.
    intros rbp p col f args H. destruct (ends_with_member f) eqn:E.
    - destruct f; try discriminate; cbn [wfp] in H; fold (attach g rbp BP_CALL) in H; rewrite ?E, ?andb_false_r in H;
        try discriminate.
      apply andb_true_iff in H as [H1 H2]. split; [exact H2|]. left. do 5 eexists. split; [reflexivity | exact H1].
    - rewrite (wfp_call_other _ _ _ _ _ _ E) in H. apply andb_true_iff in H as [H1 H2]. auto.
  Qed.

  Lemma notfixed_not_lparen : forall t, notfixed (t_kind t) -> kind_is t K_LPAREN = false.
  Proof. intros t H. unfold kind_is. rewrite list_eqb_sym. apply notfixed_neq; [exact H | reflexivity]. Qed.

  (* [inversion] names the tokens and sub-strings as the constructors of [yields] do *)
  Ltac start_complete :=
    split; [|exact I]; intros rbp used rest e' rest' Hy Hw Htk Hcl Hloop; inversion Hy; subst.

  Lemma complete_atom : forall e, is_atom e = true -> completes_with_object e.
  Proof.
    assert (Hnud : forall n k t e ts rbp e' rest', nud_kind n = Some k -> is_kind k t -> nud_atom n t = Some e ->
              run g rng (JLoop rbp e ts e' rest') -> run g rng (JExpr rbp (t :: ts) e' rest')).
    { intros n k t e ts rbp e' rest' Hn Hk He. apply (R_expr_fixed n k); [exact Hn | exact Hk | apply Run, N_atom, He]. }
    intros e He. destruct e; try discriminate He; start_complete;
      match goal with H : is_kind _ _ |- _ => rewrite <- (tpos_kind _ _ H) in * end.
    - eapply (Hnud NStr); [reflexivity | eassumption | | exact Hloop].
      cbn [nud_atom]. destruct (str_value (t_lexeme t)); [reflexivity | congruence].
    - eapply (Hnud NNum); [reflexivity | eassumption | | exact Hloop].
      cbn [nud_atom]. destruct (num_parse (t_lexeme t)); [reflexivity | congruence].
    - eapply (Hnud NTime); [reflexivity | eassumption | reflexivity | exact Hloop].
    - eapply (Hnud NTrue); [reflexivity | eassumption | reflexivity | exact Hloop].
    - eapply (Hnud NFalse); [reflexivity | eassumption | reflexivity | exact Hloop].
    - eapply (Hnud NIdent); [reflexivity | eassumption | reflexivity | exact Hloop].
  Qed.

  Lemma bracket_app : forall (lb rb : token) tes tc rest, (lb :: tes ++ tc ++ [rb]) ++ rest = lb :: (tes ++ tc) ++ rb :: rest.
  Proof. intros. cbn [app]. rewrite !app_assoc, <- app_assoc. reflexivity. Qed.

  Lemma complete_list : forall p es, Forall completes_with_object es -> completes_with_object (EList p es).
  Proof.
    intros p es HPC. apply Forall_completes in HPC. start_complete.
    rewrite app_assoc in Htk. apply toks_fit_bracket in Htk as [Htk HR]. rewrite bracket_app.
    eapply (R_expr_fixed NListMap); [reflexivity | eassumption | | exact Hloop].
    eapply list_nud; try eassumption. eapply (sep_items true); try eassumption. discriminate.
  Qed.

  Lemma complete_map : forall p kvs, Forall (fun kv => completes_with_object (fst kv) /\ completes_with_object (snd kv)) kvs -> completes_with_object (EMap p kvs).
  Proof.
    intros p kvs HPC.
    assert (HC : Forall (fun kv => completes (fst kv) /\ completes (snd kv)) kvs).
    { eapply Forall_impl; [|exact HPC]. intros a [[Ha _] [Hb _]]. split; assumption. }
    clear HPC. start_complete.
    - apply (toks_fit_bracket lb [c] rb) in Htk as [_ HR].
      eapply (R_expr_fixed NListMap); [reflexivity | eassumption | | exact Hloop].
      apply Run; eapply N_map_empty; [eapply must_eat_is; eassumption | eapply must_eat_is; eassumption | eapply rng_toks; eauto].
    - rewrite app_assoc in Htk. apply toks_fit_bracket in Htk as [Htk HR]. rewrite bracket_app.
      eapply (R_expr_fixed NListMap); [reflexivity | eassumption | | exact Hloop].
      eapply map_nud; try eassumption. eapply (sep_items true); try eassumption; [intros ->; congruence | discriminate].
  Qed.

  Lemma complete_obj : forall p fs, Forall (fun f => completes_with_object (snd f)) fs -> completes_with_object (EObj p fs).
  Proof.
    intros p fs HPC.
    assert (HC : Forall (fun f => completes (snd f)) fs).
    { eapply Forall_impl; [|exact HPC]. intros a [Ha _]. exact Ha. }
    clear HPC. start_complete.
    rewrite app_assoc in Htk. apply toks_fit_bracket in Htk as [Htk HR]. rewrite bracket_app.
    eapply (R_expr_fixed NObj); [reflexivity | eassumption | | exact Hloop].
    apply Run; eapply N_obj; [eapply fields_complete; try eassumption; eapply (sep_items true); try eassumption; discriminate | eapply must_eat_is; eassumption
                   | eapply rng_toks; eauto].
  Qed.

  Lemma complete_group : forall p x, completes_with_object x -> completes_with_object (EGroup p x).
  Proof.
    intros p x [HCx _]. start_complete.
    apply toks_fit_bracket in Htk as [Htk HR]. cbn [app]. rewrite <- app_assoc.
    eapply (R_expr_fixed NGroup); [reflexivity | eassumption | | exact Hloop].
    apply Run; eapply N_group; [eapply completes_before_closer; try eassumption; reflexivity | eapply must_eat_is; eassumption | eapply rng_toks; eauto].
  Qed.

  Lemma complete_unary : forall p n np x pre, completes_with_object x -> completes_with_object (EUnary p n np x pre).
  Proof.
    intros p n np x pre [HCx _]. start_complete.
    - match goal with H : prefix_bp g (t_kind op) = Some _ |- _ => rename H into Hpb end.
      match goal with H : is_eof op = false |- _ => rename H into Heof end.
      pose proof (prefix_bp_get _ _ Hpb) as Hget. destruct (go_prefix_op g _ _ Hg Hget) as [Hnf Hbp].
      apply toks_fit_cons in Htk as (Hlx & Htk & HR). pose proof (op_lexeme_notfixed op Hlx Hnf) as Hlex.
      destruct Hcl as [Hrom Hewm]. cbn [wfp rom ends_with_member] in Hw, Hrom, Hewm. rewrite Hlex, Hpb in Hw, Hrom.
      apply le_inf_zmin in Hrom as [Hstop Hrom]. rewrite <- (tpos_noeof op Heof) in *.
      eapply R_expr_cons; [exact Hget | | exact Hloop].
      apply Run; eapply N_prefix; [apply completes_stop; auto; split; assumption | eapply rng_tok_yields; eauto].
    - match goal with H : infix_entry g (t_kind op) = Some _ |- _ => rename H into Hie end.
      match goal with H : is_eof op = false |- _ => rename H into Heof end.
      destruct (go_infix_op g _ _ _ Hg Hie eq_refl) as [Hnf _].
      apply toks_fit_app_cons in Htk as (Htk1 & Hlx & _ & HR).
      rewrite (wfp_postfix _ _ _ _ _ _ bp) in Hw by (rewrite (op_lexeme_notfixed op Hlx Hnf); exact Hie).
      rewrite <- (tpos_noeof op Heof) in *. rewrite <- app_assoc.
      eapply (completes_attach x ts); try eassumption; [intros _; apply notfixed_not_lparen; exact Hnf | | reflexivity].
      apply Run; eapply L_postfix. eapply rng_yields_tok; try eassumption. solve_in.
  Qed.

  Lemma complete_binary : forall p n np fx l r, completes_with_object l -> completes_with_object r -> completes_with_object (EBinary p n np fx l r).
  Proof.
    intros p n np fx l r [HCl _] [HCr _]. start_complete.
    match goal with H : infix_entry g (t_kind op) = Some _ |- _ => rename H into Hie end.
    match goal with H : is_eof op = false |- _ => rename H into Heof end.
    assert (Hlb : led_bin ld bp = Some (fx, rbp_of bp ld)).
    { match goal with H : _ \/ _ |- _ => destruct H as [[-> ->]|[[-> ->]|[-> ->]]]; reflexivity end. }
    assert (Hop : led_kind ld = None) by (destruct ld; inv Hlb; reflexivity).
    destruct (go_infix_op g _ _ _ Hg Hie Hop) as [Hnf _].
    apply toks_fit_app_cons in Htk as (Htk1 & Hlx & Htk2 & HR).
    pose proof (op_lexeme_notfixed op Hlx Hnf) as Hlex.
    destruct Hcl as [Hrom Hewm]. cbn [rom ends_with_member] in Hrom, Hewm. rewrite Hlex, Hie in Hrom.
    apply le_inf_zmin in Hrom as [Hstop Hrom].
    rewrite (wfp_binary _ _ _ _ _ _ _ _ _ _ _ (eq_trans (f_equal _ Hlex) Hie) Hlb) in Hw.
    apply andb_true_iff in Hw as [Hw Hok]. apply andb_true_iff in Hw as [Hat Hwr].
    rewrite <- (tpos_noeof op Heof) in *. rewrite <- app_assoc.
    eapply (completes_attach l tl); try eassumption; [intros _; apply notfixed_not_lparen; exact Hnf|].
    apply Run; eapply L_bin; [exact Hlb | apply completes_stop; auto; split; assumption|].
    eapply rng_yields; try eassumption. apply incl_tl, incl_refl.
  Qed.

  Lemma complete_ternary : forall p n np l m r, completes_with_object l -> completes_with_object m -> completes_with_object r -> completes_with_object (ETernary p n np l m r).
  Proof.
    intros p n np l m r [HCl _] [HCm _] [HCr _]. start_complete.
    match goal with Hq : is_kind K_QUESTION q, Hc : is_kind K_COLON c |- _ =>
      rewrite <- (tpos_kind _ _ Hq) in *; pose proof (must_eat_is _ _ (tr ++ rest) Hc) as Hmc; rename Hc into Hcol end.
    apply toks_fit_app_cons in Htk as (Htk1 & _ & Htk2 & HR).
    apply toks_fit_app_cons in Htk2 as (Htkm & _ & Htkr & _).
    destruct Hcl as [Hrom Hewm]. cbn [rom ends_with_member] in Hrom, Hewm.
    apply le_inf_zmin in Hrom as [Hstop Hrom].
    rewrite wfp_ternary in Hw. apply andb_true_iff in Hw as [Hw Hwr]. apply andb_true_iff in Hw as [Hat Hwm].
    lnorm.
    eapply (completes_attach_fixed l tl _ _ _ _ LQuestion); try eassumption; try reflexivity.
    apply Run; eapply L_question; [eapply completes_before_closer; try eassumption; reflexivity | exact Hmc | apply completes_stop; auto; split; assumption|].
    eapply rng_yields; try eassumption. intros y Hy'. solve_in.
  Qed.

  Lemma complete_sub : forall p c v i, completes_with_object v -> completes_with_object i -> completes_with_object (ESub p c v i).
  Proof.
    intros p c v i [HCv _] [HCi _]. start_complete.
    match goal with Hr : is_kind K_RBRACKET rb |- _ => rewrite <- (tpos_kind _ _ Hr) in *; rename Hr into Hrb end.
    apply toks_fit_app_cons in Htk as (Htk1 & _ & Htk2 & HR).
    apply toks_fit_app in Htk2 as (Htki & _).
    rewrite wfp_sub in Hw. apply andb_true_iff in Hw as [Hat Hwi].
    lnorm.
    eapply (completes_attach_fixed v tv _ _ _ _ LSubscript); try eassumption; try reflexivity.
    apply Run; eapply L_sub; [eapply completes_before_closer; try eassumption; reflexivity | apply (must_eat_is _ _ _ Hrb)|].
    eapply rng_yields_tok; try eassumption; [apply Hrb | solve_in].
  Qed.

  Lemma complete_member : forall p c o n np, completes_with_object o -> completes_with_object (EMember p c o n np).
  Proof.
    intros p c o n np [HCo _]. split; [|exact HCo].
    intros rbp used rest e' rest' Hy Hw Htk Hcl Hloop; inversion Hy; subst.
    match goal with Hn : is_eof name = false |- _ => rewrite <- (tpos_noeof name Hn) in *; rename Hn into Heofn end.
    apply toks_fit_app in Htk as (Htk1 & Htk2 & HR). rewrite wfp_member in Hw.
    lnorm.
    eapply (completes_attach_fixed o tob _ _ _ _ LDot); try eassumption; try reflexivity.
    apply Run. eapply (L_dot g rng _ BP_MEMBER o dot (name :: rest)).
    - eapply rng_yields_tok; try eassumption. solve_in.
    - destruct Hcl as [_ Hewm]. exact (Hewm eq_refl).
  Qed.

  Lemma complete_call : forall p c f args, completes_with_object f -> Forall completes_with_object args -> completes_with_object (ECall p c f args).
  Proof.
    intros p c f args [HCf HCo] HPC. apply Forall_completes in HPC. start_complete.
    match goal with Hl : is_kind K_LPAREN lp, Hr : is_kind K_RPAREN rp |- _ =>
      rewrite <- (tpos_kind _ _ Hr) in *; rename Hl into Hlp; rename Hr into Hrp end.
    apply toks_fit_app_cons in Htk as (Htk1 & _ & Htk2 & HR).
    apply toks_fit_app in Htk2 as (Htka & _).
    apply wfp_call_cases in Hw as [Hwa [(pm & cm & o & nm & npos & -> & Hat)|[Hat Hnm]]].
    - (* immediate call after .name: the callee is built by the led of the dot *)
      match goal with H : yields g (EMember _ _ _ _ _) _ |- _ => rename H into Hym; inversion Hym; subst end.
      match goal with Hn : is_eof name = false |- _ => rewrite <- (tpos_noeof name Hn) in *; rename Hn into Heofn end.
      apply toks_fit_app in Htk1 as (Htko & _ & HRo).
      lnorm.
      eapply (completes_attach_fixed o tob _ _ _ _ LDot); try eassumption; try reflexivity.
      apply Run. eapply (L_dotcall g rng _ BP_MEMBER o dot (name :: lp :: targs ++ rp :: rest)).
      + eapply rng_yields_tok; try eassumption. solve_in.
      + apply (must_eat_is _ _ _ Hlp).
      + cbn [peek]. eapply call_complete; try eassumption.
        eapply (rng_yields_tok _ _ _ _ Hym); [apply Hrp | exact HR | solve_in].
    - lnorm.
      eapply (completes_attach_fixed f tf _ _ _ _ LCall); try eassumption; try reflexivity; [congruence|].
      apply Run, L_call. eapply call_complete; try eassumption.
      eapply rng_yields_tok; try eassumption; [apply Hrp | solve_in].
  Qed.

  Theorem complete_all : forall e, completes_with_object e.
  Proof.
    exact (expr_ind' completes_with_object
             (fun p t => complete_atom (EStr p t) eq_refl) (fun p t => complete_atom (ENum p t) eq_refl)
             (fun p t => complete_atom (ETime p t) eq_refl) (fun p b => complete_atom (EBool p b) eq_refl)
             complete_list complete_map complete_obj (fun p n => complete_atom (EIdent p n) eq_refl)
             complete_call complete_sub complete_member complete_unary complete_binary complete_ternary complete_group).
  Qed.

  Lemma complete_run : forall e ts, yields g e ts -> wfp g 0 e = true -> toks_fit ts -> run g rng (JExpr 0 ts e []).
  Proof.
    intros e ts Hy Hw Htk. rewrite <- (app_nil_r ts). apply (completes_stop e 0 ts []); auto.
    - apply complete_all.
    - apply closed_after_nil.
    - rewrite next_lbp_nil. lia.
  Qed.
End Complete.

(* completeness needs the tokens in source order: pos.Range asserts to.Idx >= from.Idx *)
Definition idx_sorted (ts : list token) : Prop := StronglySorted (fun a b => (t_idx a <= t_idx b)%N) ts.

Lemma idx_sorted_tR : forall ts, idx_sorted ts -> StronglySorted (tR Z.le) ts.
Proof.
  intros ts H. induction H as [|a l Hs IH Hf]; constructor; [exact IH|].
  eapply Forall_impl; [|exact Hf]. intros b Hb. unfold tR. apply N2Z.inj_le. exact Hb.
Qed.

Lemma range_le : forall a b, p_idx a <= p_idx b -> range a b = POk (span a b).
Proof. intros a b H. unfold range. apply Z.leb_le in H. rewrite H. reflexivity. Qed.

Lemma complete_gram : forall g ts e f, gram_ok g -> toks_ok ts -> idx_sorted ts ->
  yields g e ts -> wfp g 0 e = true -> (len ts < f)%nat -> p_expr g f 0 ts = POk (e, []).
Proof.
  intros g ts e f Hg Hlx Hso Hy Hw Hf.
  assert (Hrun : runr g (JExpr 0 ts e [])).
  { apply (complete_run _ Hg range Z.le range_le); auto. split; [exact Hlx | apply idx_sorted_tR; exact Hso]. }
  destruct (run_fn _ _ Hrun f) as [E|E]; [|exact E].
  exfalso. revert E. apply p_expr_nf; [apply (go_eof _ Hg) | exact Hf].
Qed.

Lemma parse_complete_partial : forall ops ts e,
  table_ok ops = true -> no_eof ts = true ->
  Forall (fun t => existsb (list_eqb (t_kind t)) fixed_kinds = true \/ t_lexeme t = t_kind t) ts ->
  idx_sorted ts ->
  yields (new_grammar ops) e ts -> wfp (new_grammar ops) 0 e = true ->
  parse_tokens ops ts = POk e.
Proof.
  intros ops ts e Hok _ Hlx Hso Hy Hw. unfold parse_tokens.
  rewrite (complete_gram _ ts e _ (table_ok_gram_ok ops Hok) Hlx Hso Hy Hw); [reflexivity | lia].
Qed.

Section Det.
  Variable g : grammar.
  Variable rng : pos -> pos -> pres pos.

  Lemma seq_det : forall {A} (R S : list token -> A -> list token -> Prop) close,
    (forall ts x r x' r', R ts x r -> S ts x' r' -> x = x' /\ r = r') ->
    forall b ts xs rest, sep_seq R close b ts xs rest -> forall xs' rest', sep_seq S close b ts xs' rest' -> xs = xs' /\ rest = rest'.
  Proof.
    intros A R S close Hd b ts xs rest q. induction q; intros xs' rest' q'; inv q'; try congruence; auto.
    all: try (match goal with H : must_eat _ _ = POk _ |- _ => apply must_eat_kind_is in H end; congruence).
    - match goal with H1 : R _ _ _, H2 : S _ _ _ |- _ => destruct (Hd _ _ _ _ _ H1 H2) as [-> ->] end.
      match goal with H : sep_seq S _ _ _ _ _ |- _ => apply IHq in H as [-> ->] end. auto.
    - match goal with H1 : must_eat _ _ = POk _, H2 : must_eat _ _ = POk _ |- _ => rewrite H1 in H2; inv H2 end.
      apply IHq. assumption.
  Qed.

  Definition determined {X} (J : X -> list token -> judg) (x : X) (rest : list token) : Prop :=
    forall x' rest', run g rng (J x' rest') -> x = x' /\ rest = rest'.

  Definition P_det (j : judg) : Prop :=
    match j with
    | JExpr rbp ts e rest => determined (JExpr rbp ts) e rest
    | JNud n bp t ts e rest => determined (JNud n bp t ts) e rest
    | JLoop rbp lft ts e rest => determined (JLoop rbp lft ts) e rest
    | JLed l bp lft t ts e rest => determined (JLed l bp lft t ts) e rest
    | JCall callee lp ts e rest => determined (JCall callee lp ts) e rest
    | JPair ts kv rest => determined (JPair ts) kv rest
    | JField ts f rest => determined (JField ts) f rest
    end.

  Lemma run_det : forall j, run g rng j -> P_det j.
  Proof.
    intros j H. induction H as [j s] using run_induction. destruct s; cbn [P_det] in *; unfold determined in *; intros e'' rest'' [s']; inversion s'; subst.
    (* the tests that select a rule are among its premises, so two different rules contradict each other; under the
       same rule the premises are met from left to right: a sub-derivation agrees with its twin by the induction
       hypothesis, a token or a range by rewriting, and each fixes the input of the next *)
    all: repeat first
      [ match goal with
        | H1 : ?x = Some _, H2 : ?x = Some _ |- _ => rewrite H1 in H2; inv H2
        | H1 : ?x = POk _, H2 : ?x = POk _ |- _ => rewrite H1 in H2; inv H2
        | H1 : ?x = true, H2 : ?x = false |- _ => exfalso; congruence
        | H1 : must_eat ?k ?ts = POk _, H2 : kind_is (peek ?ts) ?k = false |- _ =>
            apply must_eat_kind_is in H1; exfalso; congruence
        | H : led_bin _ _ = Some _ |- _ => discriminate H
        | H : nud_atom _ _ = Some _ |- _ => discriminate H
        end
      | match goal with
        | IH : _ /\ (forall e' rest', run g rng _ -> _ = e' /\ _ = rest'), H : run g rng _ |- _ =>
            apply (proj2 IH) in H; destruct H; subst
        | q : sep_seq _ ?c ?b ?ts _ _, q' : sep_seq _ ?c ?b ?ts _ _ |- _ =>
            destruct (seq_det _ _ c (fun ts x r x' r' h h' => proj2 h x' r' h') _ _ _ _ q _ _ q') as [-> ->]; clear q'
        end ].
    all: try (split; reflexivity).
  Qed.
End Det.

Definition rng_free (a b : pos) : pres pos := POk (span a b).

Lemma sorted_trivial : forall ts, StronglySorted (tR (fun _ _ => True)) ts.
Proof. induction ts as [|t r IH]; constructor; [exact IH | apply Forall_forall; intros; exact I]. Qed.

Lemma unique_gram : forall g ts e1 e2, gram_ok g -> toks_ok ts ->
  yields g e1 ts -> wfp g 0 e1 = true -> yields g e2 ts -> wfp g 0 e2 = true -> e1 = e2.
Proof.
  intros g ts e1 e2 Hg Hlx Hy1 Hw1 Hy2 Hw2.
  assert (Hrun : forall e, yields g e ts -> wfp g 0 e = true -> run g rng_free (JExpr 0 ts e [])).
  { intros e Hy Hw. apply (complete_run _ Hg rng_free (fun _ _ => True) (fun a b _ => eq_refl)); auto.
    split; [exact Hlx | apply sorted_trivial]. }
  exact (proj1 (run_det _ _ _ (Hrun e1 Hy1 Hw1) _ _ (Hrun e2 Hy2 Hw2))).
Qed.

Lemma wfp_unique : forall ops ts e1 e2,
  table_ok ops = true -> no_eof ts = true ->
  Forall (fun t => existsb (list_eqb (t_kind t)) fixed_kinds = true \/ t_lexeme t = t_kind t) ts ->
  yields (new_grammar ops) e1 ts -> wfp (new_grammar ops) 0 e1 = true ->
  yields (new_grammar ops) e2 ts -> wfp (new_grammar ops) 0 e2 = true -> e1 = e2.
Proof. intros ops ts e1 e2 Hok _ Hlx. exact (unique_gram _ ts e1 e2 (table_ok_gram_ok ops Hok) Hlx). Qed.

Lemma wfp_unique_partial : forall ops ts e1 e2,
  table_ok ops = true -> no_eof ts = true ->
  Forall (fun t => existsb (list_eqb (t_kind t)) fixed_kinds = true \/ t_lexeme t = t_kind t) ts ->
  idx_sorted ts ->
  yields (new_grammar ops) e1 ts -> wfp (new_grammar ops) 0 e1 = true ->
  yields (new_grammar ops) e2 ts -> wfp (new_grammar ops) 0 e2 = true -> e1 = e2.
Proof. intros ops ts e1 e2 Hok Hne Hlx _. apply wfp_unique; assumption. Qed.

Print Assumptions group_closed.
Print Assumptions yields_span.
Print Assumptions parse_nonassoc.
Print Assumptions no_fuel_partial.
Print Assumptions no_fuel_table_ok.
Print Assumptions parse_yields.
Print Assumptions parse_wfp.
Print Assumptions parse_complete_partial.
Print Assumptions wfp_unique_partial.
Print Assumptions wfp_unique.
