(* What Model/Conv.v computes, piece by piece, and the two facts about it that C07 and C15 share: a converted value is
   well formed ([val_of_good]), and a value of an interface-free Go type whose nil-able parts are filled in converts to
   a value whose type is equal ([ty_eqb]) to the static type [sty] of that Go type ([val_of_sty]), which is also what
   [type_of] reports. *)
From Coq Require Import List String Ascii Bool Arith NArith ZArith Lia.
From Yae Require Import Base.Sexp Model.Ty Model.Unify Model.Num Model.Lexer Model.Val Model.Render Model.ValSpec
  Model.Conv Model.ConvSpec Proofs.ListFacts Proofs.ValFacts.
From Yae Require Proofs.C17Proofs.
Import ListNotations.
Local Open Scope nat_scope.
Local Open Scope list_scope.

Definition field_ty (ty_of : gty -> option ty) (x : string * string * gty) : option (string * ty) :=
  let '(gn, tag, ft) := x in
  let '(name, maybe) := parse_tag gn tag in
  do t' <- ty_of ft; Some (name, if maybe then TMaybe t' else t').

Lemma type_of_S f t lv :
  type_of (S f) t lv =
  if Nat.ltb maxLevel lv then None else
  match t with
  | GPtr e => type_of f e lv
  | GTime => Some TTime
  | GBool => Some TBool
  | GInt | GUint | GFloat => Some TNum
  | GString => Some TStr
  | GSlice e | GArray e => option_map TList (type_of f e (S lv))
  | GMap k v => do kt <- type_of f k (S lv); do vt <- type_of f v (S lv); mk_mapty kt vt
  | GStruct fs => do fts <- mapM (field_ty (fun ft => type_of f ft (S lv))) fs; mk_obj fts
  | GIface | GOther => None
  end.
Proof. reflexivity. Qed.

Lemma unwrap_S f t v :
  unwrap (S f) t v =
  match t, v with
  | GPtr e, HPtr x => unwrap f e x
  | GPtr _, _ => None
  | GIface, HIface dt x => unwrap f dt x
  | GIface, _ => None
  | _, _ => Some (t, v)
  end.
Proof. reflexivity. Qed.

(* the Go types that [unwrap] has nothing to strip from *)
Definition direct (t : gty) : Prop := match t with GPtr _ | GIface => False | _ => True end.

Lemma unwrap_same f t v : f <> 0 -> direct t -> unwrap f t v = Some (t, v).
Proof. intros Hf H. destruct f; [contradiction|]. destruct t; try contradiction; reflexivity. Qed.

Lemma shape_stable_S g t v d :
  shape_stable (S g) t v d =
  match t, v with
  | _, HNil => d && match t with GPtr _ | GSlice _ | GMap _ _ => true | _ => false end
  | GBool, HBool _ | GInt, HInt _ | GUint, HUint _ | GFloat, HFloat _ | GString, HString _ | GTime, HTime _ _ => true
  | GPtr e, HPtr x => shape_stable g e x false
  | (GSlice e | GArray e), HSeq vs => forallb (fun x => shape_stable g e x false) vs
  | GMap k e, HMap kvs => forallb (fun kx => shape_stable g k (fst kx) false && shape_stable g e (snd kx) false) kvs
  | GStruct fs, HStruct vs =>
      Nat.eqb (len fs) (len vs) &&
      forallb (fun fx => let '(gn, tag, ft) := fst fx in shape_stable g ft (snd fx) (snd (parse_tag gn tag))) (combine fs vs)
  | _, _ => false
  end.
Proof. reflexivity. Qed.

Lemma mk_obj_some fts T : mk_obj fts = Some T -> nodupb (map fst fts) = true /\ T = TObj fts.
Proof. unfold mk_obj. destruct (nodupb (map fst fts)); intros H; inversion H; auto. Qed.

Lemma mk_mapty_some k v T : mk_mapty k v = Some T -> keyable k = true /\ T = TMap k v.
Proof. unfold mk_mapty. destruct (keyable k); intros H; inversion H; auto. Qed.

Section Pieces.
  Variable ops : numops.

  (* [S maxLevel + S maxLevel] is the fuel Conv.v gives [type_of] where it has no value to look at (a nil field, an empty
     container): enough for the maxLevel + 1 levels that the level check lets through and as many pointers.  Nothing
     below depends on the number: [type_of_spec] holds for any fuel. *)
  Definition conv_field (f lv : nat) (ft : gty) (maybe : bool) (x : gv) : option val :=
    if is_nil x then
      do et <- type_of (S maxLevel + S maxLevel) ft 0; Some (VMaybe (TMaybe et) None)
    else
      do y <- val_of ops f ft x (S lv);
      Some (if maybe then VMaybe (TMaybe (val_type y)) (Some y) else y).

  Definition conv_fields (f lv : nat) : list (string * string * gty) -> list gv -> option (list (string * val)) :=
    fix go (fs : list (string * string * gty)) (vs : list gv) : option (list (string * val)) :=
      match fs, vs with
      | [], [] => Some []
      | (gn, tag, ft) :: fr, x :: vr =>
          let '(name, maybe) := parse_tag gn tag in
          do fv <- conv_field f lv ft maybe x;
          do rest <- go fr vr; Some ((name, fv) :: rest)
      | _, _ => None
      end.

  Definition conv_seq (f lv : nat) (t1 e : gty) (elems : list gv) : option val :=
    match elems with
    | [] => do lt <- type_of (S maxLevel + S maxLevel) t1 lv;
            match lt with TList _ => Some (VList lt []) | _ => None end
    | _ =>
        do xs <- mapM (fun x => val_of ops f e x (S lv)) elems;
        match xs with
        | x0 :: _ => if all_eq_type (val_type x0) xs then Some (VList (TList (val_type x0)) xs) else None
        | [] => None
        end
    end.

  Definition put_step (acc : option (list (list N * val))) (kx : val * val) : option (list (list N * val)) :=
    do a <- acc;
    match key_of ops (fst kx) with
    | (_, OVal kk) => Some (kput kk (snd kx) a)
    | _ => None
    end.

  Definition conv_map (f lv : nat) (t1 kt vt : gty) (entries : list (gv * gv)) : option val :=
    match entries with
    | [] => do mt <- type_of (S maxLevel + S maxLevel) t1 lv;
            match mt with TMap _ _ => Some (VMap mt []) | _ => None end
    | _ =>
        do kvs <- mapM (fun kv => do k <- val_of ops f kt (fst kv) (S lv); do x <- val_of ops f vt (snd kv) (S lv); Some (k, x)) entries;
        match kvs with
        | (k0, x0) :: _ =>
            if all_eq_type (val_type k0) (map fst kvs) && all_eq_type (val_type x0) (map snd kvs) then
              do mt <- mk_mapty (val_type k0) (val_type x0);
              do ents <- fold_left put_step kvs (Some []);
              Some (VMap mt ents)
            else None
        | [] => None
        end
    end.

  Definition own_fields (xs : list (string * val)) : list (string * ty) :=
    map (fun nv => (fst nv, val_type (snd nv))) xs.

  Lemma combine_own_fields xs : combine (map fst (own_fields xs)) (map snd xs) = xs.
  Proof.
    unfold own_fields. induction xs as [|[n v] xs IH]; [reflexivity|]. cbn [map combine fst snd]. rewrite IH. reflexivity.
  Qed.

  Lemma assoc_own_fields n xs : assoc n (own_fields xs) = option_map val_type (assoc n xs).
  Proof.
    unfold own_fields. induction xs as [|[m v] xs IH]; [reflexivity|]. cbn [map assoc fst snd].
    destruct (String.eqb n m); [reflexivity|exact IH].
  Qed.

  Definition conv_struct (f lv : nat) (fs : list (string * string * gty)) (vs : list gv) : option val :=
    match fs with
    | [] => Some (VObj (TObj []) [])
    | _ =>
        do xs <- conv_fields f lv fs vs;
        do ot <- mk_obj (own_fields xs);
        Some (VObj ot (map snd xs))
    end.

  Definition conv_body (f lv : nat) (t1 : gty) (v1 : gv) : option val :=
    match t1, v1 with
    | GTime, HTime s n => Some (VTime s n)
    | GBool, HBool b => Some (VBool b)
    | GInt, HInt z => Some (VNum (of_Z ops z))
    | GUint, HUint n => Some (VNum (of_Z ops (Z.of_N n)))
    | GFloat, HFloat b => Some (VNum b)
    | GString, HString s => Some (VStr s)
    | (GSlice e | GArray e), (HSeq _ | HNil) =>
        conv_seq f lv t1 e (match v1 with HSeq l => l | _ => [] end)
    | GMap kt vt, (HMap _ | HNil) =>
        conv_map f lv t1 kt vt (match v1 with HMap l => l | _ => [] end)
    | GStruct fs, HStruct vs => conv_struct f lv fs vs
    | _, _ => None
    end.

  Lemma val_of_S f t v lv :
    val_of ops (S f) t v lv =
    if Nat.ltb maxLevel lv then None
    else if is_nil v then None
    else match unwrap f t v with
         | None => None
         | Some (t1, v1) => conv_body f lv t1 v1
         end.
  Proof. reflexivity. Qed.

  Lemma conv_seq_some f lv t1 e elems x : conv_seq f lv t1 e elems = Some x ->
    (elems = [] /\ exists T, type_of (S maxLevel + S maxLevel) t1 lv = Some (TList T) /\ x = VList (TList T) []) \/
    (exists x0 xr, Forall2 (fun a y => val_of ops f e a (S lv) = Some y) elems (x0 :: xr) /\
                   all_eq_type (val_type x0) (x0 :: xr) = true /\ x = VList (TList (val_type x0)) (x0 :: xr)).
  Proof.
    unfold conv_seq. intros H. destruct elems as [|a r].
    - left. apply bind_some in H. destruct H as [lt [Hlt H]]. destruct lt; try discriminate H. injection H as <-. eauto.
    - right. apply bind_some in H. destruct H as [xs [Hm H]]. destruct xs as [|x0 xr]; [discriminate|].
      destruct (all_eq_type (val_type x0) (x0 :: xr)) eqn:Hall; [|discriminate]. injection H as <-.
      exists x0, xr. auto using mapM_Forall2.
  Qed.

  Lemma conv_map_some f lv t1 kt vt entries x : conv_map f lv t1 kt vt entries = Some x ->
    (entries = [] /\ exists K V, type_of (S maxLevel + S maxLevel) t1 lv = Some (TMap K V) /\ x = VMap (TMap K V) []) \/
    (exists k0 x0 kr ents,
       Forall2 (fun kv kx => val_of ops f kt (fst kv) (S lv) = Some (fst kx) /\ val_of ops f vt (snd kv) (S lv) = Some (snd kx))
               entries ((k0, x0) :: kr) /\
       all_eq_type (val_type x0) (map snd ((k0, x0) :: kr)) = true /\ keyable (val_type k0) = true /\
       fold_left put_step ((k0, x0) :: kr) (Some []) = Some ents /\ x = VMap (TMap (val_type k0) (val_type x0)) ents).
  Proof.
    unfold conv_map. intros H. destruct entries as [|a r].
    - left. apply bind_some in H. destruct H as [mt [Hmt H]]. destruct mt; try discriminate H. injection H as <-. eauto.
    - right. apply bind_some in H. destruct H as [kvs [Hm H]]. destruct kvs as [|[k0 x0] kr]; [discriminate|].
      destruct (all_eq_type (val_type k0) (map fst ((k0, x0) :: kr))); [|discriminate].
      destruct (all_eq_type (val_type x0) (map snd ((k0, x0) :: kr))) eqn:Hall; [|discriminate].
      apply bind_some in H. destruct H as [mt [Hmt H]]. apply bind_some in H. destruct H as [ents [He H]]. injection H as <-.
      apply mk_mapty_some in Hmt. destruct Hmt as [Hkey ->].
      exists k0, x0, kr, ents. repeat split; try assumption.
      eapply Forall2_imp; [|exact (mapM_Forall2 _ _ _ Hm)].
      intros kv [k y] Hy. apply bind_some in Hy. destruct Hy as [k' [Hk Hy]]. apply bind_some in Hy. destruct Hy as [y' [Hy' Hy]].
      injection Hy as -> ->. split; assumption.
  Qed.

  (* [FC_nil] takes any [vs]: the empty struct converts whatever [vs] is *)
  Inductive conv_fields_rel (f lv : nat) : list (string * string * gty) -> list gv -> list (string * val) -> Prop :=
  | FC_nil vs : conv_fields_rel f lv [] vs []
  | FC_cons gn tag ft fr x vr name maybe fv rest :
      parse_tag gn tag = (name, maybe) -> conv_field f lv ft maybe x = Some fv -> conv_fields_rel f lv fr vr rest ->
      conv_fields_rel f lv ((gn, tag, ft) :: fr) (x :: vr) ((name, fv) :: rest).

  Lemma conv_fields_some f lv : forall fs vs xs, conv_fields f lv fs vs = Some xs -> conv_fields_rel f lv fs vs xs.
  Proof.
    induction fs as [|[[gn tag] ft] fr IH]; intros [|x vr] xs H; cbn [conv_fields] in H; try discriminate H.
    - injection H as <-. constructor.
    - destruct (parse_tag gn tag) as [name maybe] eqn:Ep.
      apply bind_some in H. destruct H as [fv [Hfv H]]. apply bind_some in H. destruct H as [rest [Hrest H]].
      injection H as <-. econstructor; eauto.
  Qed.

  Lemma conv_struct_some f lv fs vs x : conv_struct f lv fs vs = Some x ->
    exists xs, conv_fields_rel f lv fs vs xs /\ nodupb (map fst (own_fields xs)) = true /\
               x = VObj (TObj (own_fields xs)) (map snd xs).
  Proof.
    unfold conv_struct. intros H. destruct fs as [|fd fr].
    - injection H as <-. exists []. repeat split. constructor.
    - apply bind_some in H. destruct H as [xs [Hxs H]]. apply bind_some in H. destruct H as [ot [Hot H]]. injection H as <-.
      apply mk_obj_some in Hot. destruct Hot as [Hn ->].
      exists xs. auto using conv_fields_some.
  Qed.
End Pieces.

Lemma TypeOf_eq ops t v :
  TypeOf ops t v = match ValOf ops t v with Some x => Some (val_type x) | None => type_of conv_fuel t 0 end.
Proof. reflexivity. Qed.

(* [type_of] without fuel and without the nesting-level limit *)
Fixpoint sty (t : gty) : option ty :=
  match t with
  | GPtr e => sty e
  | GTime => Some TTime
  | GBool => Some TBool
  | GInt | GUint | GFloat => Some TNum
  | GString => Some TStr
  | GSlice e | GArray e => option_map TList (sty e)
  | GMap k v => do kt <- sty k; do vt <- sty v; mk_mapty kt vt
  | GStruct fs => do fts <- mapM (field_ty sty) fs; mk_obj fts
  | GIface | GOther => None
  end.

Lemma type_of_spec : forall f t lv T, type_of f t lv = Some T -> sty t = Some T /\ good_ty T.
Proof.
  induction f as [|f IH]; intros t lv T H; [discriminate|].
  rewrite type_of_S in H. destruct (Nat.ltb maxLevel lv); [discriminate|].
  destruct t as [| | | | | |e|e|e|k v|fs| |]; cbn [sty]; try discriminate H;
    try (injection H as <-; repeat split; reflexivity).
  1: exact (IH _ _ _ H).
  1-2: destruct (type_of f e (S lv)) as [Te|] eqn:E; [|discriminate]; injection H as <-;
    destruct (IH _ _ _ E) as [-> G]; split; [reflexivity|exact G].
  - apply bind_some in H. destruct H as [kt [Hk H]]. apply bind_some in H. destruct H as [vt [Hv H]].
    destruct (IH _ _ _ Hk) as [-> Gk]. destruct (IH _ _ _ Hv) as [-> Gv]. split; [exact H|].
    apply mk_mapty_some in H. destruct H as [Hkey ->]. apply good_ty_map; assumption.
  - apply bind_some in H. destruct H as [fts [Hm H]].
    apply (mapM_ext_Forall _ (field_ty sty) (fun y => good_ty (snd y))) in Hm.
    + destruct Hm as [-> G]. split; [exact H|]. apply mk_obj_some in H. destruct H as [Hn ->]. apply good_ty_obj; assumption.
    + intros [[gn tag] ft] y. unfold field_ty. destruct (parse_tag gn tag) as [name maybe]. intros Hy.
      apply bind_some in Hy. destruct Hy as [t' [Ht' Hy]]. injection Hy as <-.
      destruct (IH _ _ _ Ht') as [-> G]. split; [reflexivity|]. destruct maybe; exact G.
Qed.

Lemma type_of_sty f t lv T : type_of f t lv = Some T -> sty t = Some T.
Proof. intros H. apply (type_of_spec _ _ _ _ H). Qed.

Lemma type_of_good f t lv T : type_of f t lv = Some T -> good_ty T.
Proof. intros H. apply (type_of_spec _ _ _ _ H). Qed.

Lemma val_type_eqb_refl x : good x -> ty_eqb (val_type x) (val_type x) = true.
Proof. intros H. apply C17Proofs.eq_refl. apply (good_val_type x H). Qed.

Lemma eqb_sym_good a b : good_ty a -> good_ty b -> ty_eqb a b = true -> ty_eqb b a = true.
Proof. intros [Ha _] [Hb _]. apply C17Proofs.eqb_sym_imp; assumption. Qed.

Lemma all_eq_type_good x0 vs : good x0 -> Forall good vs -> all_eq_type (val_type x0) vs = true ->
  Forall (fun y => good y /\ ty_eqb (val_type y) (val_type x0) = true) vs.
Proof.
  intros H0 Hg Hall. unfold all_eq_type in Hall. rewrite forallb_forall in Hall. rewrite Forall_forall in *.
  intros y Hy. split; [exact (Hg y Hy)|].
  apply eqb_sym_good; [exact (good_val_type _ H0)|exact (good_val_type _ (Hg y Hy))|exact (Hall y Hy)].
Qed.

Lemma good_own_fields xs : Forall (fun nv => good (snd nv)) xs ->
  nodupb (map fst (own_fields xs)) = true -> good (VObj (TObj (own_fields xs)) (map snd xs)).
Proof.
  intros Hg Hn. apply good_objval.
  - apply good_ty_obj; [exact Hn|]. unfold own_fields. rewrite Forall_map. cbn [snd].
    eapply Forall_impl; [|exact Hg]. intros nv. apply good_val_type.
  - clear Hn. induction Hg as [|nv r H _ IH]; cbn [own_fields map]; constructor; [|exact IH].
    split; [exact H|exact (val_type_eqb_refl _ H)].
Qed.

Lemma put_step_none ops kvs : fold_left (put_step ops) kvs None = None.
Proof. induction kvs as [|kx r IH]; [reflexivity|exact IH]. Qed.

Lemma put_entries_inv ops (P : val -> Prop) : forall kvs a ents,
  fold_left (put_step ops) kvs (Some a) = Some ents ->
  nodup_keys (map fst a) = true -> Forall (fun kv => P (snd kv)) a ->
  Forall (fun kx => P (snd kx)) kvs ->
  nodup_keys (map fst ents) = true /\ Forall (fun kv => P (snd kv)) ents.
Proof.
  induction kvs as [|kx r IH]; intros a ents H Hn Ha Hk.
  - injection H as <-. auto.
  - cbn [fold_left] in H. inversion Hk as [|? ? Hkx Hkr]; subst.
    unfold put_step at 2 in H. cbn [bind] in H.
    destruct (key_of ops (fst kx)) as [tr [kk|fk|fk]]; try (rewrite put_step_none in H; discriminate).
    apply IH in H; auto.
    + apply kput_nodup; exact Hn.
    + apply Forall_forall. intros kv Hin. apply kput_In in Hin. destruct Hin as [->|Hin]; [exact Hkx|].
      rewrite Forall_forall in Ha. apply Ha; exact Hin.
Qed.

Section Good.
  Variable ops : numops.
  Variable f : nat.
  Hypothesis IHf : forall t v lv x, val_of ops f t v lv = Some x -> good x.

  Lemma conv_seq_good lv t1 e elems x : conv_seq ops f lv t1 e elems = Some x -> good x.
  Proof.
    intros H. destruct (conv_seq_some _ _ _ _ _ _ _ H) as [[_ [T [HT ->]]]|[x0 [xr [HF [Hall ->]]]]].
    - apply good_list; [exact (type_of_good _ _ _ _ HT)|constructor].
    - assert (Forall good (x0 :: xr)) as Hg by (eapply Forall2_Forall_r; [exact HF|]; intros a y; apply IHf).
      pose proof (Forall_inv Hg) as Hg0.
      apply good_list; [exact (good_val_type _ Hg0)|exact (all_eq_type_good _ _ Hg0 Hg Hall)].
  Qed.

  Lemma conv_map_good lv t1 kt vt entries x : conv_map ops f lv t1 kt vt entries = Some x -> good x.
  Proof.
    intros H.
    destruct (conv_map_some _ _ _ _ _ _ _ _ H)
      as [[_ [K [V [HT ->]]]]|[k0 [x0 [kr [ents [HF [Hall [Hkey [He ->]]]]]]]]].
    - apply good_map; [exact (type_of_good _ _ _ _ HT)|reflexivity|constructor].
    - assert (Forall (fun kx => good (fst kx) /\ good (snd kx)) ((k0, x0) :: kr)) as Hg.
      { eapply Forall2_Forall_r; [exact HF|]. intros kv kx [Hk Hx]. split; eapply IHf; eassumption. }
      destruct (Forall_inv Hg) as [Hgk Hgx]. cbn [fst snd] in Hgk, Hgx.
      apply (put_entries_inv ops (fun x => good x /\ ty_eqb (val_type x) (val_type x0) = true)) in He;
        [|reflexivity|constructor|].
      + destruct He as [Hn Hents]. apply good_map; [|exact Hn|exact Hents].
        apply good_ty_map; [exact Hkey|exact (good_val_type _ Hgk)|exact (good_val_type _ Hgx)].
      + apply (Forall_map snd (fun x => good x /\ ty_eqb (val_type x) (val_type x0) = true)).
        apply all_eq_type_good; [exact Hgx| |exact Hall].
        apply Forall_map. eapply Forall_impl; [|exact Hg]. intros kx Hkx. apply Hkx.
  Qed.

  Lemma conv_field_good lv ft maybe x fv : conv_field ops f lv ft maybe x = Some fv -> good fv.
  Proof.
    unfold conv_field. intros H. destruct (is_nil x).
    - apply bind_some in H. destruct H as [et [Het H]]. injection H as <-.
      apply good_maybe; [exact (type_of_good _ _ _ _ Het)|exact I].
    - apply bind_some in H. destruct H as [y [Hy H]]. injection H as <-. apply IHf in Hy.
      destruct maybe; [|exact Hy]. apply good_maybe; [exact (good_val_type _ Hy)|]. split; [exact Hy|exact (val_type_eqb_refl _ Hy)].
  Qed.

  Lemma conv_struct_good lv fs vs x : conv_struct ops f lv fs vs = Some x -> good x.
  Proof.
    intros H. destruct (conv_struct_some _ _ _ _ _ _ H) as [xs [Hxs [Hn ->]]].
    apply good_own_fields; [|exact Hn]. clear H Hn.
    induction Hxs as [|gn tag ft fr v vr name maybe fv rest _ Hfv _ IH]; [constructor|].
    constructor; [exact (conv_field_good _ _ _ _ _ Hfv)|exact IH].
  Qed.

  Lemma conv_body_good lv t1 v1 x : conv_body ops f lv t1 v1 = Some x -> good x.
  Proof.
    intros H.
    destruct t1 as [| | | | | |e|e|e|k v|fs| |]; destruct v1; cbn [conv_body] in H; try discriminate H.
    (* the six scalars *)
    all: try (injection H as <-; split; reflexivity).
    all: try (eapply conv_seq_good; exact H).
    all: try (eapply conv_map_good; exact H).
    eapply conv_struct_good; exact H.
  Qed.
End Good.

Theorem val_of_good ops : forall f t v lv x, val_of ops f t v lv = Some x -> good x.
Proof.
  induction f as [|f IH]; intros t v lv x H; [discriminate|].
  rewrite val_of_S in H.
  destruct (Nat.ltb maxLevel lv); [discriminate|]. destruct (is_nil v); [discriminate|].
  destruct (unwrap f t v) as [[t1 v1]|]; [|discriminate].
  eapply conv_body_good; eauto.
Qed.

(* At fuel 400 the kernel must never unfold [val_of].  When it compares the type a term has with the type expected of
   it, it unfolds the head constant of the expected type first; so [ValOf] is met only as the expected type of a term
   stated with [val_of], as here (the other way round does not terminate in practice).  Clients use the [ValOf_] forms. *)
Lemma ValOf_good ops t v x : ValOf ops t v = Some x -> good x.
Proof. exact (val_of_good ops conv_fuel t v 0 x). Qed.

(* [val_of_S] at the concrete fuel, [conv_fuel] = 400 = S 399; the fuel stays folded as [conv_fuel - 1] so that no goal
   carries a numeral *)
Lemma ValOf_unfold ops t v :
  ValOf ops t v =
  if is_nil v then None
  else match unwrap (conv_fuel - 1) t v with
       | None => None
       | Some (t1, v1) => conv_body ops (conv_fuel - 1) 0 t1 v1
       end.
Proof. exact (val_of_S ops 399 t v 0). Qed.

Lemma unwrap_top t v : direct t -> unwrap (conv_fuel - 1) t v = Some (t, v).
Proof. apply unwrap_same. discriminate. Qed.

(* [TypeEnvOf] and [ValEnvOf] unwrap with the whole fuel *)
Lemma unwrap_env_top t v : direct t -> unwrap conv_fuel t v = Some (t, v).
Proof. apply unwrap_same. discriminate. Qed.

(* with some fuel, so that [stable_inv] can speak of the parts without counting *)
Definition stable (t : gty) (v : gv) : Prop := exists k, shape_stable k t v false = true.

(* a nil slot must be declared optional, a filled one must be stable *)
Definition slot_stable (ft : gty) (opt : bool) (x : gv) : Prop := if is_nil x then opt = true else stable ft x.

Definition field_stable (fx : string * string * gty * gv) : Prop :=
  let '(gn, tag, ft, x) := fx in slot_stable ft (snd (parse_tag gn tag)) x.

Lemma shape_stable_field k ft x d : shape_stable k ft x d = true -> slot_stable ft d x.
Proof.
  destruct k as [|k]; [discriminate|]. intros H. unfold slot_stable. destruct (is_nil x) eqn:En.
  - rewrite shape_stable_S in H. destruct x; try discriminate En. destruct d; [reflexivity|]. destruct ft; discriminate H.
  - exists (S k). rewrite shape_stable_S in *. destruct x; try discriminate En; exact H.
Qed.

Lemma stable_inv t v : stable t v ->
  match t, v with
  | _, HNil => False
  | GPtr e, HPtr x => stable e x
  | (GSlice e | GArray e), HSeq vs => Forall (stable e) vs
  | GMap k e, HMap kvs => Forall (fun kx => stable k (fst kx) /\ stable e (snd kx)) kvs
  | GStruct fs, HStruct vs => Forall field_stable (combine fs vs)
  | _, _ => True
  end.
Proof.
  intros [k H]. destruct k as [|k]; [discriminate|]. rewrite shape_stable_S in H.
  destruct t; destruct v; try discriminate H; try exact I.
  - exists k. exact H.
  - revert H. apply forallb_Forall. intros x Hx. exists k. exact Hx.
  - revert H. apply forallb_Forall. intros x Hx. exists k. exact Hx.
  - revert H. apply forallb_Forall. intros kx Hx. apply andb_true_iff in Hx. destruct Hx. split; exists k; assumption.
  - apply andb_true_iff in H. destruct H as [_ H]. revert H. apply forallb_Forall.
    intros [[[gn tag] ft] x]. apply shape_stable_field.
Qed.

Lemma stable_nonnil t v : stable t v -> is_nil v = false.
Proof. intros H. apply stable_inv in H. destruct v; try reflexivity. destruct t; contradiction. Qed.

Lemma unwrap_stable : forall f t v t1 v1,
  unwrap f t v = Some (t1, v1) -> iface_free t = true -> stable t v ->
  iface_free t1 = true /\ stable t1 v1 /\ sty t1 = sty t.
Proof.
  induction f as [|f IH]; intros t v t1 v1 H Hi Hs; [discriminate|]. rewrite unwrap_S in H.
  destruct t; try discriminate Hi; try (injection H as <- <-; auto).
  destruct v; try discriminate H. apply stable_inv in Hs. exact (IH _ _ _ _ H Hi Hs).
Qed.

Definition field_eqb_good (a b : string * ty) : Prop := fst a = fst b /\ good_ty (snd b) /\ ty_eqb (snd a) (snd b) = true.

Lemma obj_pointwise f1 f2 : Forall2 field_eqb_good f1 f2 -> nodupb (map fst f1) = true ->
  mk_obj f2 = Some (TObj f2) /\ good_ty (TObj f2) /\ ty_eqb (TObj f1) (TObj f2) = true.
Proof.
  intros HF Hn.
  assert (map fst f1 = map fst f2) as E.
  { clear Hn. induction HF as [|a b r1 r2 [Hab _] _ IH]; [reflexivity|]. cbn [map]. rewrite Hab, IH. reflexivity. }
  rewrite E in Hn. unfold mk_obj. rewrite Hn. split; [reflexivity|]. split.
  - apply good_ty_obj; [exact Hn|]. eapply Forall2_Forall_r; [exact HF|]. intros a b Hab. apply Hab.
  - apply C17Proofs.ty_eqb_obj_spec. split; [exact (Forall2_len _ _ _ HF)|].
    intros n t Hin. destruct (Forall2_In_l _ _ _ _ HF Hin) as [[n' t'] [Hb [E1 [_ E2]]]].
    cbn [fst snd] in *. subst n'. exists t'. split; [|exact E2].
    apply In_assoc; [apply nodupb_NoDup; exact Hn|exact Hb].
Qed.

(* equal up to [ty_eqb], which is all that [env_check] (C07) and [shape_only] (C15) ask for *)
Definition has_sty (t : gty) (x : val) : Prop :=
  exists T, sty t = Some T /\ good_ty T /\ ty_eqb (val_type x) T = true.

Lemma type_of_has_sty f t lv x : type_of f t lv = Some (val_type x) -> has_sty t x.
Proof.
  intros H. destruct (type_of_spec _ _ _ _ H) as [E G]. exists (val_type x).
  split; [exact E|]. split; [exact G|]. apply C17Proofs.eq_refl, G.
Qed.

(* what the induction on fuel carries from [val_of] at [f] to the pieces at [f] *)
Definition gives_sty (cv : gty -> gv -> option val) : Prop :=
  forall t v x, cv t v = Some x -> iface_free t = true -> stable t v -> has_sty t x.

Section Sty.
  Variable ops : numops.
  Variable f : nat.
  Hypothesis IHf : forall lv, gives_sty (fun t v => val_of ops f t v lv).

  (* the first element decides the type of a list or map *)
  Lemma conv_seq_sty lv t1 e elems x :
    conv_seq ops f lv t1 e elems = Some x -> sty t1 = option_map TList (sty e) ->
    iface_free e = true -> Forall (stable e) elems -> has_sty t1 x.
  Proof.
    intros H Hst Hi Hs. destruct (conv_seq_some _ _ _ _ _ _ _ H) as [[_ [T [HT ->]]]|[x0 [xr [HF [_ ->]]]]].
    - exact (type_of_has_sty _ _ _ (VList (TList T) []) HT).
    - inversion HF as [|a ? r ? Ha _]; subst. inversion Hs as [|? ? Hsa _]; subst.
      destruct (IHf _ _ _ _ Ha Hi Hsa) as [T [HT [G E]]].
      exists (TList T). rewrite Hst, HT. split; [reflexivity|]. split; [exact G|exact E].
  Qed.

  Lemma conv_map_sty lv kt vt entries x :
    conv_map ops f lv (GMap kt vt) kt vt entries = Some x -> iface_free kt = true -> iface_free vt = true ->
    Forall (fun kx => stable kt (fst kx) /\ stable vt (snd kx)) entries -> has_sty (GMap kt vt) x.
  Proof.
    intros H Hik Hiv Hs.
    destruct (conv_map_some _ _ _ _ _ _ _ _ H) as [[_ [K [V [HT ->]]]]|[k0 [x0 [kr [ents [HF [_ [Hkey [_ ->]]]]]]]]].
    - exact (type_of_has_sty _ _ _ (VMap (TMap K V) []) HT).
    - inversion HF as [|a ? r ? [Hk Hx] _]; subst. inversion Hs as [|? ? [Hsk Hsx] _]; subst.
      destruct (IHf _ _ _ _ Hk Hik Hsk) as [Tk [HTk [Gk Ek]]]. destruct (IHf _ _ _ _ Hx Hiv Hsx) as [Tv [HTv [Gv Ev]]].
      cbn [fst snd] in Ek, Ev. pose proof Hkey as Hkey'. rewrite (C17Proofs.eqb_keyable _ _ Ek) in Hkey'.
      exists (TMap Tk Tv). cbn [sty]. rewrite HTk, HTv. cbn [bind]. unfold mk_mapty. rewrite Hkey'.
      split; [reflexivity|]. split; [apply good_ty_map; assumption|]. cbn [val_type ty_eqb]. rewrite Ek, Ev. reflexivity.
  Qed.

  Lemma conv_field_sty lv ft maybe x fv :
    conv_field ops f lv ft maybe x = Some fv -> iface_free ft = true -> slot_stable ft maybe x ->
    exists T, sty ft = Some T /\ good_ty T /\ ty_eqb (val_type fv) (if maybe then TMaybe T else T) = true.
  Proof.
    unfold conv_field, slot_stable. intros H Hi Hs. destruct (is_nil x).
    - subst maybe. apply bind_some in H. destruct H as [et [Het H]]. injection H as <-.
      destruct (type_of_spec _ _ _ _ Het) as [E G]. exists et. split; [exact E|]. split; [exact G|].
      apply (C17Proofs.eq_refl (TMaybe et)), G.
    - apply bind_some in H. destruct H as [y [Hy H]]. injection H as <-.
      destruct (IHf _ _ _ _ Hy Hi Hs) as [T [HT [G E]]]. exists T. split; [exact HT|]. split; [exact G|].
      destruct maybe; exact E.
  Qed.

  Lemma fields_sty lv fs vs xs :
    conv_fields_rel ops f lv fs vs xs -> forallb (fun fd => iface_free (snd fd)) fs = true ->
    Forall field_stable (combine fs vs) ->
    exists fts, mapM (field_ty sty) fs = Some fts /\ Forall2 field_eqb_good (own_fields xs) fts.
  Proof.
    induction 1 as [|gn tag ft fr x vr name maybe fv rest Ep Hfv _ IH]; intros Hi Hs.
    - exists []. split; [reflexivity|constructor].
    - cbn [forallb snd] in Hi. apply andb_true_iff in Hi. destruct Hi as [Hi1 Hi2].
      cbn [combine] in Hs. inversion Hs as [|? ? Hs1 Hs2]; subst. cbn [field_stable] in Hs1. rewrite Ep in Hs1.
      destruct (conv_field_sty _ _ _ _ _ Hfv Hi1 Hs1) as [T [HT [G E]]]. destruct (IH Hi2 Hs2) as [fts [Hm HF]].
      rewrite mapM_cons, Hm. cbn [field_ty]. rewrite Ep, HT. eexists. split; [reflexivity|].
      constructor; [|exact HF]. split; [reflexivity|]. split; [destruct maybe; exact G|exact E].
  Qed.

  Lemma conv_struct_sty lv fs vs x :
    conv_struct ops f lv fs vs = Some x -> forallb (fun fd => iface_free (snd fd)) fs = true ->
    Forall field_stable (combine fs vs) -> has_sty (GStruct fs) x.
  Proof.
    intros H Hi Hs. destruct (conv_struct_some _ _ _ _ _ _ H) as [xs [Hxs [Hn ->]]].
    destruct (fields_sty _ _ _ _ Hxs Hi Hs) as [fts [Hm HF]].
    exists (TObj fts). cbn [sty]. rewrite Hm. exact (obj_pointwise _ _ HF Hn).
  Qed.
End Sty.

Theorem val_of_sty ops : forall f lv, gives_sty (fun t v => val_of ops f t v lv).
Proof.
  induction f as [|f IH]; intros lv t v x H Hi Hs; [discriminate|].
  rewrite val_of_S in H.
  destruct (Nat.ltb maxLevel lv); [discriminate|]. destruct (is_nil v); [discriminate|].
  destruct (unwrap f t v) as [[t1 v1]|] eqn:Eu; [|discriminate].
  destruct (unwrap_stable _ _ _ _ _ Eu Hi Hs) as [Hi1 [Hs1 Hst]]. unfold has_sty. rewrite <- Hst.
  clear Hst Eu Hi Hs t v. apply stable_inv in Hs1.
  destruct t1 as [| | | | | |e|e|e|k w|fs| |]; destruct v1; cbn [conv_body] in H; try discriminate H;
    try contradiction Hs1.
  (* the six scalars *)
  all: try (injection H as <-; eexists; repeat split; reflexivity).
  1-2: exact (conv_seq_sty ops f IH _ _ _ _ _ H eq_refl Hi1 Hs1).
  - cbn [iface_free] in Hi1. apply andb_true_iff in Hi1. destruct Hi1 as [Hik Hiv].
    exact (conv_map_sty ops f IH _ _ _ _ _ H Hik Hiv Hs1).
  - exact (conv_struct_sty ops f IH _ _ _ _ H Hi1 Hs1).
Qed.

Lemma ValOf_sty ops t v x : ValOf ops t v = Some x -> iface_free t = true -> stable t v -> has_sty t x.
Proof. exact (val_of_sty ops conv_fuel 0 t v x). Qed.
