(* Type equality [ty_eqb] is an equivalence on well-formed types and coincides with equality of normal forms.
   Matching (unification against a variable-free type) is sound and complete w.r.t. [inst] for substitutions that
   bind well-formed types only; [match_sound_counterexample] and [match_complete_counterexample] show what fails
   for others.  The laws of [ty_eqb] and the equations of [unify], [inst] and [apply_subst] serve other proof files
   as well. *)
From Coq Require Import List String Ascii Bool Arith NArith Lia Permutation Sorting.
From Yae Require Import Base.Sexp Model.Ty Model.Unify Model.TySpec Proofs.TyInd Proofs.ListFacts.
Import ListNotations.

Definition fields_rel (R : ty -> ty -> Prop) (f1 f2 : list (string * ty)) : Prop :=
  forall n t, In (n, t) f1 -> exists t', assoc n f2 = Some t' /\ R t t'.

Lemma fields_rel_flip (R : ty -> ty -> Prop) f1 f2 :
  NoDup (map fst f1) -> NoDup (map fst f2) -> List.length f1 = List.length f2 ->
  fields_rel R f1 f2 -> fields_rel (fun a b => R b a) f2 f1.
Proof. exact (all_get_flip (@assoc) (@assoc_In) (@In_assoc) (@In_keys_assoc) R f1 f2). Qed.

Fixpoint eqb_list (l1 l2 : list ty) {struct l1} : bool :=
  match l1, l2 with
  | [], [] => true
  | a :: r1, b :: r2 => ty_eqb a b && eqb_list r1 r2
  | _, _ => false
  end.

Definition eqb_fields (f2 : list (string * ty)) : list (string * ty) -> bool :=
  fix go (f1 : list (string * ty)) : bool :=
    match f1 with
    | [] => true
    | (n, t) :: r => match assoc n f2 with Some t' => ty_eqb t t' | None => false end && go r
    end.

Lemma ty_eqb_tuple l1 l2 : ty_eqb (TTuple l1) (TTuple l2) = eqb_list l1 l2.
Proof. reflexivity. Qed.

Lemma ty_eqb_obj f1 f2 :
  ty_eqb (TObj f1) (TObj f2) = Nat.eqb (List.length f1) (List.length f2) && eqb_fields f2 f1.
Proof. reflexivity. Qed.

Lemma ty_eqb_fun n1 p1 r1 n2 p2 r2 :
  ty_eqb (TFun n1 p1 r1) (TFun n2 p2 r2) = eqb_list p1 p2 && ty_eqb r1 r2.
Proof. reflexivity. Qed.

Lemma eqb_list_Forall2 l1 l2 :
  eqb_list l1 l2 = true <-> Forall2 (fun a b => ty_eqb a b = true) l1 l2.
Proof. exact (forallb2_Forall2 ty_eqb l1 l2). Qed.

Lemma ty_eqb_obj_spec f1 f2 :
  ty_eqb (TObj f1) (TObj f2) = true <->
  List.length f1 = List.length f2 /\ fields_rel (fun a b => ty_eqb a b = true) f1 f2.
Proof.
  rewrite ty_eqb_obj, andb_true_iff, Nat.eqb_eq. rewrite (allb_get_spec (@assoc) ty_eqb f2 f1 : eqb_fields f2 f1 = true <-> _).
  tauto.
Qed.

Lemma wf_obj fs : wf_ty (TObj fs) = true ->
  NoDup (map fst fs) /\ forall n t, In (n, t) fs -> wf_ty t = true.
Proof.
  simpl. intros H. apply andb_true_iff in H. destruct H as [H1 H2]. split.
  - apply nodupb_NoDup; assumption.
  - intros n t Hin. rewrite forallb_forall in H2. apply (H2 _ Hin).
Qed.

Lemma wf_tuple l : wf_ty (TTuple l) = true -> Forall (fun t => wf_ty t = true) l.
Proof. simpl. intros H. apply Forall_forall. apply forallb_forall. exact H. Qed.

Lemma wf_fun n ps r : wf_ty (TFun n ps r) = true -> Forall (fun t => wf_ty t = true) ps /\ wf_ty r = true.
Proof.
  simpl. intros H. apply andb_true_iff in H. destruct H as [H1 H2]. split; [|assumption].
  apply Forall_forall. apply forallb_forall. exact H1.
Qed.

Lemma wf_map k v : wf_ty (TMap k v) = true -> keyable k = true /\ wf_ty k = true /\ wf_ty v = true.
Proof. simpl. intros H. apply andb_true_iff in H. destruct H as [H1 H2]. apply andb_true_iff in H1. tauto. Qed.

Lemma eqb_list_trans l1 :
  Forall (fun x => forall y z, ty_eqb x y = true -> ty_eqb y z = true -> ty_eqb x z = true) l1 ->
  forall l2 l3, eqb_list l1 l2 = true -> eqb_list l2 l3 = true -> eqb_list l1 l3 = true.
Proof.
  induction 1 as [|a r1 Ha Hr IH]; intros [|b r2] [|c r3] H1 H2; simpl in *; try discriminate; [reflexivity|].
  apply andb_true_iff in H1. apply andb_true_iff in H2. destruct H1, H2.
  rewrite (Ha b c) by assumption. simpl. eapply IH; eauto.
Qed.

Lemma eqb_trans : forall x y z, ty_eqb x y = true -> ty_eqb y z = true -> ty_eqb x z = true.
Proof.
  induction x as [| |n| | | | |l IHl|e IHe|k v IHk IHv|fs IHfs|n ps r IHps IHr|e IHe] using ty_ind'; intros y z Hxy Hyz;
    destruct y as [| |n'| | | | |l'|e'|k' v'|fs'|n' ps' r'|e']; try discriminate Hxy;
    destruct z as [| |n''| | | | |l''|e''|k'' v''|fs''|n'' ps'' r''|e'']; try discriminate Hyz; try reflexivity.
  - simpl in *. apply String.eqb_eq in Hxy. apply String.eqb_eq in Hyz. subst. apply String.eqb_refl.
  - rewrite ty_eqb_tuple in *. eapply eqb_list_trans; eauto.
  - simpl in *. eauto.
  - simpl in *. apply andb_true_iff in Hxy. apply andb_true_iff in Hyz. destruct Hxy, Hyz.
    rewrite (IHk k' k''), (IHv v' v'') by assumption. reflexivity.
  - apply ty_eqb_obj_spec in Hxy. apply ty_eqb_obj_spec in Hyz. apply ty_eqb_obj_spec.
    destruct Hxy as [L1 R1]. destruct Hyz as [L2 R2]. split; [congruence|].
    intros n t Hin. destruct (R1 n t Hin) as [t2 [A2 E2]].
    destruct (R2 n t2 (assoc_In _ _ _ A2)) as [t3 [A3 E3]].
    exists t3. split; [assumption|].
    rewrite Forall_forall in IHfs. apply (IHfs (n, t) Hin t2 t3); assumption.
  - rewrite ty_eqb_fun in *. apply andb_true_iff in Hxy. apply andb_true_iff in Hyz. destruct Hxy, Hyz.
    rewrite (eqb_list_trans _ IHps ps' ps''), (IHr r' r'') by assumption. reflexivity.
  - simpl in *. eauto.
Qed.

Lemma eqb_tys_trans l1 l2 l3 : eqb_list l1 l2 = true -> eqb_list l2 l3 = true -> eqb_list l1 l3 = true.
Proof. exact (eqb_trans (TTuple l1) (TTuple l2) (TTuple l3)). Qed.

Lemma eq_trans : forall x y z, wf_ty x = true -> wf_ty y = true -> wf_ty z = true ->
  ty_eqb x y = true -> ty_eqb y z = true -> ty_eqb x z = true.
Proof. intros x y z _ _ _. apply eqb_trans. Qed.

Lemma eqb_list_norm l1 :
  Forall (fun x => forall y, wf_ty x = true -> wf_ty y = true -> (ty_eqb x y = true <-> norm x = norm y)) l1 ->
  forall l2, Forall (fun t => wf_ty t = true) l1 -> Forall (fun t => wf_ty t = true) l2 ->
  (eqb_list l1 l2 = true <-> map norm l1 = map norm l2).
Proof.
  induction 1 as [|a r1 Ha Hr IH]; intros [|b r2] Hw1 Hw2; simpl; split; intros HH;
    try discriminate; try reflexivity.
  - inversion Hw1 as [|? ? Wa Wr1]; subst. inversion Hw2 as [|? ? Wb Wr2]; subst.
    apply andb_true_iff in HH. destruct HH as [HH1 HH2].
    apply Ha in HH1; try assumption. apply IH in HH2; try assumption. congruence.
  - inversion Hw1 as [|? ? Wa Wr1]; subst. inversion Hw2 as [|? ? Wb Wr2]; subst. injection HH as E1 E2.
    apply andb_true_iff. split; [apply Ha; assumption|apply IH; assumption].
Qed.

Lemma eq_structural : forall x y, wf_ty x = true -> wf_ty y = true ->
  (ty_eqb x y = true <-> norm x = norm y).
Proof.
  induction x as [| |n| | | | |l IHl|e IHe|k v IHk IHv|fs IHfs|n ps r IHps IHr|e IHe] using ty_ind'; intros y Hwx Hwy;
    destruct y as [| |n'| | | | |l'|e'|k' v'|fs'|n' ps' r'|e'];
    try (split; intros HH; discriminate HH);
    try (split; reflexivity).
  - simpl. split; intros HH.
    + apply String.eqb_eq in HH. congruence.
    + injection HH as E. subst. apply String.eqb_refl.
  - rewrite ty_eqb_tuple. apply wf_tuple in Hwx. apply wf_tuple in Hwy. simpl.
    rewrite (eqb_list_norm _ IHl _ Hwx Hwy). split; intros HH; [congruence|injection HH; auto].
  - simpl in *. rewrite (IHe e' Hwx Hwy). split; intros HH; [congruence|injection HH; auto].
  - apply wf_map in Hwx. apply wf_map in Hwy. destruct Hwx as [_ [Hk1 Hv1]]. destruct Hwy as [_ [Hk2 Hv2]].
    simpl. rewrite andb_true_iff. rewrite (IHk k' Hk1 Hk2), (IHv v' Hv1 Hv2).
    split; intros HH; [destruct HH; congruence|injection HH; auto].
  - (* equal as sets of named fields, so equal once sorted by name *)
    apply wf_obj in Hwx. apply wf_obj in Hwy. destruct Hwx as [Hn1 Hw1]. destruct Hwy as [Hn2 Hw2].
    rewrite Forall_forall in IHfs.
    rewrite ty_eqb_obj_spec. cbn [norm]. split; intros HH.
    + destruct HH as [Hlen Hrel]. f_equal. apply sort_kv_perm_eq; [rewrite map_fst_keyed; exact Hn1|].
      apply (all_get_perm (@assoc) (@assoc_In)); try assumption. intros n t Hin.
      destruct (Hrel n t Hin) as [t2 [Ha He]]. exists t2. split; [exact Ha|].
      apply (IHfs (n, t) Hin t2); simpl; eauto using assoc_In.
    + injection HH as HH. apply sort_kv_eq_perm in HH. split.
      * apply Permutation_length in HH. rewrite !map_length in HH. exact HH.
      * intros n t Hin.
        assert (In (n, norm t) (map (fun f => (fst f, norm (snd f))) fs')) as Hin2.
        { eapply Permutation_in; [exact HH|]. exact (in_map (fun f => (fst f, norm (snd f))) _ _ Hin). }
        apply in_map_iff in Hin2. destruct Hin2 as [[n' t'] [[= -> Et] Hin2]].
        exists t'. split; [apply In_assoc; assumption|].
        apply (IHfs (n, t) Hin t'); simpl; eauto.
  - apply wf_fun in Hwx. apply wf_fun in Hwy. destruct Hwx as [Hp1 Hr1]. destruct Hwy as [Hp2 Hr2].
    rewrite ty_eqb_fun. simpl. rewrite andb_true_iff.
    rewrite (eqb_list_norm _ IHps _ Hp1 Hp2), (IHr r' Hr1 Hr2).
    split; intros HH; [destruct HH; congruence|injection HH; auto].
  - simpl in *. rewrite (IHe e' Hwx Hwy). split; intros HH; [congruence|injection HH; auto].
Qed.

Lemma eq_refl : forall t, wf_ty t = true -> ty_eqb t t = true.
Proof. intros t H. apply (eq_structural t t H H). reflexivity. Qed.

Lemma eqb_sym_imp : forall x y, wf_ty x = true -> wf_ty y = true -> ty_eqb x y = true -> ty_eqb y x = true.
Proof.
  intros x y Hx Hy E. apply (eq_structural y x Hy Hx). symmetry. apply (eq_structural x y Hx Hy). exact E.
Qed.

Lemma eq_sym : forall x y, wf_ty x = true -> wf_ty y = true -> ty_eqb x y = ty_eqb y x.
Proof. intros x y Hx Hy. apply Bool.eq_true_iff_eq. split; apply eqb_sym_imp; assumption. Qed.

Lemma eqb_keyable a b : ty_eqb a b = true -> keyable a = keyable b.
Proof. destruct a; destruct b; simpl; intros H; try discriminate H; reflexivity. Qed.

Definition subst_wf (m : subst) : bool := forallb (fun kv => wf_ty (snd kv)) m.

Lemma rbind_ok {X Y} (r : res X) (k : X -> res Y) y : rbind r k = Ok y -> exists x, r = Ok x /\ k x = Ok y.
Proof. destruct r as [x| | |]; intros H; try discriminate H. exists x. split; [reflexivity|exact H]. Qed.

(* top-level copies of the nested fixpoints of [unify] *)
Definition unify_fields (fa f : nat) (f2 : list (string * ty)) :=
  fix go (f1 : list (string * ty)) (m : subst) : res (list (string * ty) * subst) :=
    match f1 with
    | [] => Ok ([], m)
    | (n, a) :: r1 =>
        match assoc n f2 with
        | None => Fail
        | Some b =>
            let* (u, m1) := unify fa f a b m in
            let* (us, m2) := go r1 m1 in Ok ((n, u) :: us, m2)
        end
    end.

Definition unify_list (fa f : nat) :=
  fix go (l1 l2 : list ty) (m : subst) : res (list ty * subst) :=
    match l1, l2 with
    | a :: r1, b :: r2 =>
        let* (u, m1) := unify fa f a b m in
        let* (us, m2) := go r1 r2 m1 in Ok (u :: us, m2)
    | _, _ => Ok ([], m)
    end.

Lemma unify_list_cons fa f a r1 b r2 m :
  unify_list fa f (a :: r1) (b :: r2) m =
  let* (u, m1) := unify fa f a b m in let* (us, m2) := unify_list fa f r1 r2 m1 in Ok (u :: us, m2).
Proof. reflexivity. Qed.

Lemma unify_fields_cons fa f f2 n a r1 m :
  unify_fields fa f f2 ((n, a) :: r1) m =
  match assoc n f2 with
  | None => Fail
  | Some b => let* (u, m1) := unify fa f a b m in let* (us, m2) := unify_fields fa f f2 r1 m1 in Ok ((n, u) :: us, m2)
  end.
Proof. reflexivity. Qed.

Lemma unify_obj fa f f1 f2 m :
  unify fa (S f) (TObj f1) (TObj f2) m =
  if negb (Nat.eqb (List.length f1) (List.length f2)) then Fail else
  let* (fs, m1) := unify_fields fa f f2 f1 m in Ok (TObj fs, m1).
Proof. reflexivity. Qed.

Lemma unify_tuple fa f l1 l2 m :
  unify fa (S f) (TTuple l1) (TTuple l2) m =
  if negb (Nat.eqb (List.length l1) (List.length l2)) then Fail else
  let* (ks, m1) := unify_list fa f l1 l2 m in Ok (TTuple ks, m1).
Proof. reflexivity. Qed.

Lemma unify_tlist fa f a b m :
  unify fa (S f) (TList a) (TList b) m = let* (e, m1) := unify fa f a b m in Ok (TList e, m1).
Proof. reflexivity. Qed.

Lemma unify_tmaybe fa f a b m :
  unify fa (S f) (TMaybe a) (TMaybe b) m = let* (e, m1) := unify fa f a b m in Ok (TMaybe e, m1).
Proof. reflexivity. Qed.

Lemma unify_tmap fa f k1 v1 k2 v2 m :
  unify fa (S f) (TMap k1 v1) (TMap k2 v2) m =
  let* (k, m1) := unify fa f k1 k2 m in
  let* (v, m2) := unify fa f v1 v2 m1 in
  let* t := mk_map k v in Ok (t, m2).
Proof. reflexivity. Qed.

(* one parameter: a call is checked by unifying the pseudo type [TFun fname [s] t], [s] a tuple of fresh variables,
   with [TFun fname [TTuple params] ret] (Model/Unify.v, at [pseudo]) *)
Lemma unify_tfun1 fa f n1 a r1 n2 b r2 m :
  unify fa (S f) (TFun n1 [a] r1) (TFun n2 [b] r2) m =
  let* xp := apply_subst fa m a in
  let* yp := apply_subst fa m b in
  let* (u, m1) := unify fa f xp yp m in
  let* (r, m2) := unify fa f r1 r2 m1 in Ok (TFun n1 [u] r, m2).
Proof.
  cbn. destruct (apply_subst fa m a) as [xp| | |]; simpl; try reflexivity.
  destruct (apply_subst fa m b) as [yp| | |]; simpl; try reflexivity.
  destruct (unify fa f xp yp m) as [[u m1]| | |]; simpl; reflexivity.
Qed.

(* [unify_leaf] and [unify_shape] go through this instead of running [unify] on every pair of constructors *)
Lemma unify_off_diagonal fa f x y m :
  is_composite x && is_composite y && same_kind x y = false -> is_var x && is_var y = false ->
  unify fa (S f) x y m =
  if is_primitive x && is_primitive y && same_kind x y then Ok (x, m)
  else if is_var x then bind_var fa (var_name x) y m
  else if is_var y then bind_var fa (var_name y) x m
  else match y with TBot => Ok (x, m) | _ => match x with TTop => Ok (x, m) | _ => Fail end end.
Proof. intros Hc Hv. cbn [unify]. rewrite Hc, Hv. reflexivity. Qed.

Lemma unify_var fa f n y m : is_var y = false -> unify fa (S f) (TVar n) y m = bind_var fa n y m.
Proof. destruct y; intros H; try discriminate H; reflexivity. Qed.

Lemma unify_var_r fa f x n m : is_var x = false -> unify fa (S f) x (TVar n) m = bind_var fa n x m.
Proof. destruct x; intros H; try discriminate H; reflexivity. Qed.

Lemma unify_var_var fa f a b m :
  unify fa (S f) (TVar a) (TVar b) m =
  let* ax := apply_subst fa m (TVar a) in
  let* ay := apply_subst fa m (TVar b) in
  if ty_eqb ax ay then Ok (TVar a, m) else bind_var fa a (TVar b) m.
Proof. reflexivity. Qed.

Lemma unify_nonvar_bot fa f x m : is_var x = false -> unify fa (S f) x TBot m = Ok (x, m).
Proof. destruct x; intros H; try discriminate H; reflexivity. Qed.

Lemma unify_top fa f y m : is_var y = false -> unify fa (S f) TTop y m = Ok (TTop, m).
Proof. destruct y; intros H; try discriminate H; reflexivity. Qed.

Lemma unify_leaf fa f x y m :
  is_var x = false -> is_composite x = false -> same_kind x y = true -> unify fa (S f) x y m = Ok (x, m).
Proof.
  intros Hv Hc Hk. rewrite unify_off_diagonal, Hk, Hv by (rewrite ?Hc, ?Hv; reflexivity).
  destruct x; try discriminate Hv; try discriminate Hc; destruct y; try discriminate Hk; reflexivity.
Qed.

Lemma unify_shape fa f x y m r :
  unify fa (S f) x y m = Ok r -> is_var x = false -> is_var y = false ->
  y = TBot \/ x = TTop \/ same_kind x y = true.
Proof.
  intros HU Hx Hy. destruct (same_kind x y) eqn:Hk; [auto|].
  rewrite unify_off_diagonal, Hx, Hy, Hk, andb_false_r in HU by (rewrite ?Hx, ?Hk; auto using andb_false_r).
  destruct y; auto; destruct x; auto; discriminate HU.
Qed.

Lemma inst_var s n g : inst s (TVar n) g = match assoc n s with Some t => ty_eqb t g | None => false end.
Proof. reflexivity. Qed.

Lemma inst_tlist s a b : inst s (TList a) (TList b) = inst s a b.
Proof. reflexivity. Qed.

Lemma inst_tmaybe s a b : inst s (TMaybe a) (TMaybe b) = inst s a b.
Proof. reflexivity. Qed.

Lemma inst_tmap s k1 v1 k2 v2 : inst s (TMap k1 v1) (TMap k2 v2) = inst s k1 k2 && inst s v1 v2.
Proof. reflexivity. Qed.

Lemma inst_tuple s l1 l2 : inst s (TTuple l1) (TTuple l2) = forallb2 (inst s) l1 l2.
Proof. reflexivity. Qed.

Lemma inst_obj s f1 f2 :
  inst s (TObj f1) (TObj f2) = Nat.eqb (List.length f1) (List.length f2) && allb_get (@assoc) (inst s) f2 f1.
Proof. reflexivity. Qed.

Lemma inst_tfun s n ps r n' ps' r' : inst s (TFun n ps r) (TFun n' ps' r') = false.
Proof. reflexivity. Qed.

Lemma inst_nonvar_bot s p : is_var p = false -> inst s p TBot = true.
Proof. destruct p; intros H; try discriminate H; reflexivity. Qed.

Lemma inst_top s g : inst s TTop g = true.
Proof. destruct g; reflexivity. Qed.

Lemma inst_leaf s p g : is_var p = false -> is_composite p = false -> same_kind p g = true -> inst s p g = true.
Proof.
  intros Hv Hc Hk. destruct p; try discriminate Hv; try discriminate Hc; destruct g; try discriminate Hk; reflexivity.
Qed.

Lemma inst_shape s p g : inst s p g = true -> is_var p = false -> g = TBot \/ p = TTop \/ same_kind p g = true.
Proof. intros Hi Hv. destruct p; try discriminate Hv; auto; destruct g; auto; discriminate Hi. Qed.

Lemma bind_var_inv fa n y m r m' :
  bind_var fa n y m = Ok (r, m') ->
  apply_subst fa m y = Ok r /\ free_from r n = Ok true /\ m' = update n r m /\
  (forall k, assoc n m = Some k -> ty_eqb k r = true).
Proof.
  unfold bind_var. intros H.
  apply rbind_ok in H. destruct H as [y1 [E1 H]]. apply rbind_ok in H. destruct H as [[|] [E2 H]]; [|discriminate H].
  destruct (assoc n m) as [k|].
  - destruct (ty_eqb k y1) eqn:Ek; [|discriminate H]. injection H as <- <-.
    repeat split; try assumption. intros k' [= <-]. exact Ek.
  - injection H as <- <-. repeat split; try assumption. discriminate.
Qed.

Lemma slot_free_not_var y : slot_free y = true -> is_var y = false.
Proof. destruct y; simpl; intros H; try discriminate H; reflexivity. Qed.

Lemma bot_left : forall fa f y m r m',
  slot_free y = true -> unify fa (S f) TBot y m = Ok (r, m') -> y = TBot.
Proof.
  intros fa f y m r m' Hs H.
  destruct (unify_shape _ _ _ _ _ _ H Logic.eq_refl (slot_free_not_var _ Hs)) as [E|[E|E]];
    [exact E|discriminate E|].
  destruct y; try discriminate E; reflexivity.
Qed.

Lemma rmapM_F2 {X Y} (g : X -> res Y) l l' : rmapM g l = Ok l' <-> Forall2 (fun x y => g x = Ok y) l l'.
Proof.
  revert l'. induction l as [|a r IH]; intros l'; simpl; split; intros H.
  - injection H as H. subst. constructor.
  - inversion H. reflexivity.
  - destruct (g a) as [b| | |] eqn:Ea; simpl in H; try discriminate H.
    destruct (rmapM g r) as [r'| | |] eqn:Er; simpl in H; try discriminate H.
    injection H as H. subst. constructor; [assumption|]. apply IH. reflexivity.
  - inversion H as [|a0 b r0 r' Hab Hr]; subst. rewrite Hab. simpl.
    apply IH in Hr. rewrite Hr. reflexivity.
Qed.

Lemma rmapM_map_ok {X Y} (g : X -> res Y) (h : X -> Y) l :
  (forall x, In x l -> g x = Ok (h x)) -> rmapM g l = Ok (map h l).
Proof.
  induction l as [|a r IH]; intros H; simpl; [reflexivity|].
  rewrite (H a) by (left; reflexivity). simpl. rewrite IH by (intros x Hin; apply H; right; exact Hin). reflexivity.
Qed.

Lemma rmapM_ok_id {X} (g : X -> res X) l : (forall x, In x l -> g x = Ok x) -> rmapM g l = Ok l.
Proof. intros H. rewrite <- (map_id l) at 2. exact (rmapM_map_ok g id l H). Qed.

Definition asub_to (f : nat) (m : subst) (a u : ty) : Prop := apply_subst f m a = Ok u.

(* [Forall2 (same_key Q)] relates two field lists position by position, where [fields_rel] goes by name *)
Definition same_key (Q : ty -> ty -> Prop) (nf nu : string * ty) : Prop := fst nu = fst nf /\ Q (snd nf) (snd nu).

Definition asub_field (f : nat) (m : subst) (nf : string * ty) : res (string * ty) :=
  rmap (fun t' => (fst nf, t')) (apply_subst f m (snd nf)).

Lemma asub_field_ok f m nf nu : asub_field f m nf = Ok nu <-> same_key (asub_to f m) nf nu.
Proof.
  unfold asub_field, same_key, asub_to. destruct nf as [n a]. destruct nu as [n' u]. simpl.
  destruct (apply_subst f m a) as [u0| | |]; simpl; split; intros H;
    try discriminate H; try (apply proj2 in H; discriminate H).
  - injection H as H1 H2. subst. split; reflexivity.
  - destruct H as [H1 H2]. injection H2 as H2. subst. reflexivity.
Qed.

Lemma asub_fields_F2 f m fs us : rmapM (asub_field f m) fs = Ok us <-> Forall2 (same_key (asub_to f m)) fs us.
Proof.
  rewrite rmapM_F2. split; intros H; eapply Forall2_imp; try exact H; intros a b; apply asub_field_ok.
Qed.

Lemma asub_obj_eq f m fs : apply_subst (S f) m (TObj fs) = rmap TObj (rmapM (asub_field f m) fs).
Proof. reflexivity. Qed.

Lemma asub_inv f m t u : apply_subst (S f) m t = Ok u ->
  match t with
  | TVar n => match assoc n m with
              | None => u = t
              | Some r => if is_var_named r n then u = t else apply_subst f m r = Ok u
              end
  | TList e => exists e', apply_subst f m e = Ok e' /\ u = TList e'
  | TMaybe e => exists e', apply_subst f m e = Ok e' /\ u = TMaybe e'
  | TMap k v => exists k' v', apply_subst f m k = Ok k' /\ apply_subst f m v = Ok v' /\
                              keyable k' = true /\ u = TMap k' v'
  | TTuple l => exists us, Forall2 (asub_to f m) l us /\ u = TTuple us
  | TObj fs => exists us, Forall2 (same_key (asub_to f m)) fs us /\ u = TObj us
  | TFun n ps r => exists ps' r', Forall2 (asub_to f m) ps ps' /\ apply_subst f m r = Ok r' /\ u = TFun n ps' r'
  | _ => u = t
  end.
Proof.
  intros H. destruct t; try (simpl in H; injection H as H; subst; reflexivity).
  - simpl in H. destruct (assoc n m) as [r|]; [destruct (is_var_named r n)|];
      try (injection H as H; subst; reflexivity). exact H.
  - simpl in H. destruct (rmapM (apply_subst f m) l) as [us| | |] eqn:E; simpl in H; try discriminate H.
    injection H as H. subst. exists us. split; [|reflexivity]. apply rmapM_F2 in E. exact E.
  - simpl in H. destruct (apply_subst f m t) as [e'| | |] eqn:E; simpl in H; try discriminate H.
    injection H as H. subst. eauto.
  - simpl in H. destruct (apply_subst f m t1) as [k'| | |] eqn:E1; simpl in H; try discriminate H.
    destruct (apply_subst f m t2) as [v'| | |] eqn:E2; simpl in H; try discriminate H.
    unfold mk_map in H. destruct (keyable k') eqn:Ek; try discriminate H.
    injection H as H. subst. exists k', v'. auto.
  - rewrite asub_obj_eq in H. destruct (rmapM (asub_field f m) fs) as [us| | |] eqn:E; simpl in H; try discriminate H.
    injection H as H. subst. exists us. split; [|reflexivity]. apply asub_fields_F2. exact E.
  - simpl in H. destruct (rmapM (apply_subst f m) ps) as [ps'| | |] eqn:E1; simpl in H; try discriminate H.
    destruct (apply_subst f m t) as [r'| | |] eqn:E2; simpl in H; try discriminate H.
    injection H as H. subst. exists ps', r'. split; [|auto]. apply rmapM_F2 in E1. exact E1.
  - simpl in H. destruct (apply_subst f m t) as [e'| | |] eqn:E; simpl in H; try discriminate H.
    injection H as H. subst. eauto.
Qed.

Lemma asub_list_intro f m e e' : apply_subst f m e = Ok e' -> apply_subst (S f) m (TList e) = Ok (TList e').
Proof. intros H. simpl. rewrite H. reflexivity. Qed.

Lemma asub_maybe_intro f m e e' : apply_subst f m e = Ok e' -> apply_subst (S f) m (TMaybe e) = Ok (TMaybe e').
Proof. intros H. simpl. rewrite H. reflexivity. Qed.

Lemma asub_map_intro f m k v k' v' :
  apply_subst f m k = Ok k' -> apply_subst f m v = Ok v' -> keyable k' = true ->
  apply_subst (S f) m (TMap k v) = Ok (TMap k' v').
Proof. intros H1 H2 H3. simpl. rewrite H1, H2. simpl. unfold mk_map. rewrite H3. reflexivity. Qed.

Lemma asub_tuple_intro f m l us : Forall2 (asub_to f m) l us -> apply_subst (S f) m (TTuple l) = Ok (TTuple us).
Proof. intros H. apply rmapM_F2 in H. simpl. rewrite H. reflexivity. Qed.

Lemma asub_obj_intro f m fs us :
  Forall2 (same_key (asub_to f m)) fs us -> apply_subst (S f) m (TObj fs) = Ok (TObj us).
Proof. intros H. apply asub_fields_F2 in H. rewrite asub_obj_eq, H. reflexivity. Qed.

Lemma asub_fun_intro f m n ps r ps' r' :
  Forall2 (asub_to f m) ps ps' -> apply_subst f m r = Ok r' ->
  apply_subst (S f) m (TFun n ps r) = Ok (TFun n ps' r').
Proof. intros H1 H2. apply rmapM_F2 in H1. simpl. rewrite H1. simpl. rewrite H2. reflexivity. Qed.

Lemma asub_ground_id : forall fa m y y1,
  slot_free y = true -> apply_subst fa m y = Ok y1 -> y1 = y.
Proof.
  induction fa as [|fa IH]; intros m y y1 Hs H; [discriminate H|].
  apply asub_inv in H. destruct y as [| | | | | | |l|e|k v|fs|n ps r|e]; simpl in Hs; try discriminate Hs; try exact H.
  2,6: destruct H as [e' [He ->]]; f_equal; exact (IH m e e' Hs He).   (* list, maybe *)
  - (* tuple *) destruct H as [us [HF ->]]. rewrite forallb_forall in Hs. f_equal.
    eapply Forall2_id; [|exact HF]. intros x y Hin Hx. exact (IH m x y (Hs x Hin) Hx).
  - (* map *) apply andb_true_iff in Hs. destruct Hs as [Hs1 Hs2].
    destruct H as [k' [v' [Hk [Hv [_ ->]]]]]. f_equal; [exact (IH m k k' Hs1 Hk)|exact (IH m v v' Hs2 Hv)].
  - (* obj *) destruct H as [us [HF ->]]. rewrite forallb_forall in Hs. f_equal.
    eapply Forall2_id; [|exact HF]. intros [n a] [n' u] Hin [Hn Hu]. simpl in Hn, Hu. subst n'.
    f_equal. exact (IH m a u (Hs _ Hin) Hu).
  - (* fun *) apply andb_true_iff in Hs. destruct Hs as [Hs1 Hs2]. rewrite forallb_forall in Hs1.
    destruct H as [ps' [r' [HF [Hr ->]]]]. f_equal; [|exact (IH m r r' Hs2 Hr)].
    eapply Forall2_id; [|exact HF]. intros x y' Hin Hx. exact (IH m x y' (Hs1 x Hin) Hx).
Qed.

Lemma size_in_list (l : list ty) x : In x l -> ty_size x <= fold_right (fun x a => ty_size x + a) 0 l.
Proof. apply (In_le_sum ty_size). Qed.

Lemma size_in_fields (l : list (string * ty)) x :
  In x l -> ty_size (snd x) <= fold_right (fun f a => ty_size (snd f) + a) 0 l.
Proof. apply (In_le_sum (fun f => ty_size (snd f))). Qed.

Lemma ty_size_pos x : 1 <= ty_size x.
Proof. destruct x; simpl; lia. Qed.

Lemma asub_ground_ok : forall fa m y,
  slot_free y = true -> wf_ty y = true -> ty_size y <= fa -> apply_subst fa m y = Ok y.
Proof.
  induction fa as [|fa IH]; intros m y Hs Hw Hsz.
  { pose proof (ty_size_pos y). lia. }
  assert (forall l, forallb slot_free l = true -> Forall (fun t => wf_ty t = true) l ->
            fold_right (fun x a => ty_size x + a) 0 l <= fa -> rmapM (apply_subst fa m) l = Ok l) as Hl.
  { intros l H1 H2 H3. apply rmapM_ok_id. intros x Hin. rewrite forallb_forall in H1. rewrite Forall_forall in H2.
    pose proof (size_in_list _ _ Hin). apply IH; auto. lia. }
  destruct y as [| | | | | | |l|e|k v|fs|n ps r|e]; simpl in Hs, Hsz; try discriminate Hs; try reflexivity.
  - (* tuple *) simpl. rewrite Hl; [reflexivity|exact Hs|exact (wf_tuple _ Hw)|lia].
  - simpl in *. rewrite IH; [reflexivity|assumption|assumption|lia].
  - (* map *) apply wf_map in Hw. destruct Hw as [Hk [Hw1 Hw2]]. apply andb_true_iff in Hs. destruct Hs as [Hs1 Hs2].
    simpl. rewrite !IH by (assumption || lia). simpl. unfold mk_map. rewrite Hk. reflexivity.
  - (* obj *) apply wf_obj in Hw. destruct Hw as [_ Hw]. rewrite forallb_forall in Hs.
    simpl. rewrite rmapM_ok_id; [reflexivity|].
    intros [n t] Hin. pose proof (size_in_fields _ _ Hin). simpl in *. rewrite IH; [reflexivity|apply (Hs _ Hin)|eauto|lia].
  - (* fun *) apply wf_fun in Hw. destruct Hw as [Hw1 Hw2]. apply andb_true_iff in Hs. destruct Hs as [Hs1 Hs2].
    simpl. rewrite Hl, IH by (assumption || lia). reflexivity.
  - simpl in *. rewrite IH; [reflexivity|assumption|assumption|lia].
Qed.

Lemma assoc_update_same n t m : assoc n (update n t m) = Some t.
Proof.
  induction m as [|[k v] r IH]; simpl.
  - rewrite String.eqb_refl. reflexivity.
  - destruct (String.eqb_spec k n) as [E|E]; simpl.
    + rewrite String.eqb_refl. reflexivity.
    + destruct (String.eqb_spec n k) as [E'|E']; [congruence|exact IH].
Qed.

Lemma assoc_update_other n' n t m : n' <> n -> assoc n' (update n t m) = assoc n' m.
Proof.
  intros Hne. induction m as [|[k v] r IH]; simpl.
  - destruct (String.eqb_spec n' n); [congruence|reflexivity].
  - destruct (String.eqb_spec k n) as [E|E]; simpl.
    + subst k. destruct (String.eqb_spec n' n); [congruence|reflexivity].
    + destruct (String.eqb_spec n' k); [reflexivity|exact IH].
Qed.

Lemma forallb_update (P : ty -> bool) n t m :
  forallb (fun kv => P (snd kv)) m = true -> P t = true ->
  forallb (fun kv => P (snd kv)) (update n t m) = true.
Proof.
  intros Hm Ht. induction m as [|[k v] r IH]; simpl in *.
  - rewrite Ht. reflexivity.
  - apply andb_true_iff in Hm. destruct Hm as [Hv Hr].
    destruct (String.eqb k n); simpl.
    + rewrite Ht, Hr. reflexivity.
    + rewrite Hv. simpl. auto.
Qed.

Lemma forallb_assoc (P : ty -> bool) n t (m : subst) :
  forallb (fun kv => P (snd kv)) m = true -> assoc n m = Some t -> P t = true.
Proof.
  intros Hm Ha. apply assoc_In in Ha. rewrite forallb_forall in Hm. apply (Hm _ Ha).
Qed.

Lemma ground_assoc m n t : ground_subst m = true -> assoc n m = Some t -> slot_free t = true /\ simple t = true.
Proof.
  intros Hm Ha. apply andb_true_iff.
  apply (forallb_assoc (fun t => slot_free t && simple t) n t m Hm Ha).
Qed.

Lemma ground_update n t m :
  ground_subst m = true -> slot_free t = true -> simple t = true -> ground_subst (update n t m) = true.
Proof.
  intros Hm H1 H2. apply (forallb_update (fun t => slot_free t && simple t)); [exact Hm|].
  rewrite H1, H2. reflexivity.
Qed.

Lemma wf_assoc m n t : subst_wf m = true -> assoc n m = Some t -> wf_ty t = true.
Proof. apply (forallb_assoc wf_ty). Qed.

Lemma wf_update n t m : subst_wf m = true -> wf_ty t = true -> subst_wf (update n t m) = true.
Proof. apply (forallb_update wf_ty). Qed.

Lemma extends_refl m : subst_wf m = true -> extends m m.
Proof. intros Hw n t Ha. exists t. split; [assumption|]. apply eq_refl. eapply wf_assoc; eauto. Qed.

Lemma extends_trans a b c : extends a b -> extends b c -> extends a c.
Proof.
  intros H1 H2 n t Ha. destruct (H1 n t Ha) as [t1 [Hb E1]]. destruct (H2 n t1 Hb) as [t2 [Hc E2]].
  exists t2. split; [assumption|]. eapply eqb_trans; eauto.
Qed.

Lemma extends_update n y m :
  subst_wf m = true -> (forall k, assoc n m = Some k -> ty_eqb k y = true) -> extends m (update n y m).
Proof.
  intros Hw Hk n' t Ha. destruct (String.eqb_spec n' n) as [E|E].
  - subst n'. exists y. rewrite assoc_update_same. split; [reflexivity|auto].
  - exists t. rewrite assoc_update_other by assumption. split; [assumption|].
    apply eq_refl. eapply wf_assoc; eauto.
Qed.

Lemma slot_free_occurs : forall t n, slot_free t = true -> occurs n t = false.
Proof.
  induction t using ty_ind'; intros v Hs; simpl in Hs; try discriminate Hs; try reflexivity.
  - rewrite forallb_forall in Hs. rewrite Forall_forall in H.
    apply existsb_false. intros x Hx. exact (H x Hx v (Hs x Hx)).
  - simpl. auto.
  - apply andb_true_iff in Hs. destruct Hs. simpl. rewrite IHt1, IHt2 by assumption. reflexivity.
  - rewrite forallb_forall in Hs. rewrite Forall_forall in H.
    apply existsb_false. intros x Hx. exact (H x Hx v (Hs x Hx)).
  - apply andb_true_iff in Hs. destruct Hs as [Hs1 Hs2]. rewrite forallb_forall in Hs1. rewrite Forall_forall in H.
    simpl. rewrite IHt by assumption. rewrite orb_false_r.
    apply existsb_false. intros x Hx. exact (H x Hx v (Hs1 x Hx)).
  - simpl. auto.
Qed.

Lemma free_from_spec : forall t n, simple t = true -> free_from t n = Ok (negb (occurs n t)).
Proof.
  induction t using ty_ind'; intros v Hs; simpl in Hs; try discriminate Hs; try reflexivity.
  - simpl. rewrite String.eqb_sym. reflexivity.
  - simpl. auto.
  - apply andb_true_iff in Hs. destruct Hs as [Hs1 Hs2]. simpl. rewrite IHt1 by assumption. simpl.
    destruct (occurs v t1); simpl; auto.
  - simpl. induction H as [|[n t] r Ht Hr IH]; [reflexivity|]. simpl in *.
    apply andb_true_iff in Hs. destruct Hs as [Hs1 Hs2]. rewrite Ht by assumption. simpl.
    destruct (occurs v t); simpl; auto.
  - simpl. auto.
Qed.

Lemma free_from_occurs t n : simple t = true -> free_from t n = Ok true -> occurs n t = false.
Proof. intros Hs H. rewrite free_from_spec in H by assumption. injection H as H. apply negb_true_iff. exact H. Qed.

Lemma ground_no_self_binding m : ground_subst m = true -> no_self_binding m.
Proof. intros Hm n t Ha. apply slot_free_occurs. eapply ground_assoc; eauto. Qed.

Lemma bind_var_ok fa n y m :
  slot_free y = true -> simple y = true -> wf_ty y = true -> ty_size y <= fa ->
  (forall k, assoc n m = Some k -> ty_eqb k y = true) ->
  bind_var fa n y m = Ok (y, update n y m).
Proof.
  intros Hs Hsim Hw Hsz Hk. unfold bind_var.
  rewrite asub_ground_ok by assumption. simpl.
  rewrite free_from_spec, slot_free_occurs by assumption. simpl.
  destruct (assoc n m) as [k|] eqn:Ea; [|reflexivity].
  rewrite (Hk k) by reflexivity. reflexivity.
Qed.

Lemma inst_mono : forall p s s' g,
  subst_wf s = true -> subst_wf s' = true -> extends s s' -> inst s p g = true -> inst s' p g = true.
Proof.
  intros p s s' g Hw Hw' Hext. revert g.
  induction p using ty_ind'; intros g Hi.
  3: { (* variable *)
    rewrite inst_var in *. destruct (assoc n s) as [t|] eqn:Ea; [|discriminate Hi].
    destruct (Hext n t Ea) as [t' [Ea' Et]]. rewrite Ea'.
    eapply eqb_trans; [|exact Hi]. apply eqb_sym_imp; eauto using wf_assoc. }
  all: destruct (inst_shape _ _ _ Hi Logic.eq_refl) as [->|[Et|Hk]];
    [apply inst_nonvar_bot; reflexivity|try discriminate Et; apply inst_top|].
  all: try (apply inst_leaf; [reflexivity|reflexivity|exact Hk]).
  all: destruct g; try discriminate Hk; clear Hk.
  - rewrite inst_tuple in *. exact (forallb2_impl _ _ _ H _ Hi).
  - rewrite inst_tlist in *. auto.
  - rewrite inst_tmap in *. apply andb_true_iff in Hi. destruct Hi as [H1 H2].
    rewrite (IHp1 _ H1), (IHp2 _ H2). reflexivity.
  - rewrite inst_obj in *. apply andb_true_iff in Hi. destruct Hi as [H1 H2].
    rewrite H1, (allb_get_impl (@assoc) _ _ _ _ H H2). reflexivity.
  - rewrite inst_tfun in Hi. discriminate Hi.
  - rewrite inst_tmaybe in *. auto.
Qed.

(* what a successful [unify fa f x y m = Ok (r, m')] is shown to establish *)
Definition keeps (Inv : subst -> Prop) (Rel : subst -> ty -> ty -> Prop) (m : subst) (x y : ty) (m' : subst) : Prop :=
  Inv m' /\ extends m m' /\ Rel m' x y.

Lemma keeps_imp Inv (Rel : subst -> ty -> ty -> Prop) m x y m' x' y' :
  (Rel m' x y -> Rel m' x' y') -> keeps Inv Rel m x y m' -> keeps Inv Rel m x' y' m'.
Proof. intros HR [H1 [H2 H3]]. split; [exact H1|split; [exact H2|exact (HR H3)]]. Qed.

(* [unify_list] and [unify_fields] thread the substitution through the elements from left to right.  What [step]
   gives for an earlier pair holds of the substitution then current, and [Rel_mono] carries it to the final one.
   [DomL] and [DomR] are the types for which the callers have [step].  The callers are matching, with [inst] for
   [Rel], and two-sided unification, with [R] of C17TwoSided.v. *)
Section Thread.
  Variables (fa f : nat) (Inv : subst -> Prop) (DomL DomR : ty -> Prop) (Rel : subst -> ty -> ty -> Prop).
  Hypothesis Inv_refl : forall m, Inv m -> extends m m.
  Hypothesis Rel_mono : forall m m' a b, Inv m -> Inv m' -> extends m m' -> Rel m a b -> Rel m' a b.
  Hypothesis step : forall x y m r m',
    DomL x -> DomR y -> Inv m -> unify fa f x y m = Ok (r, m') -> keeps Inv Rel m x y m'.

  Lemma keeps_same m x y : Inv m -> Rel m x y -> keeps Inv Rel m x y m.
  Proof. intros Hm HR. split; [exact Hm|split; [apply Inv_refl; exact Hm|exact HR]]. Qed.

  (* on lists of different lengths [unify_list] stops at the shorter one and answers [Ok]; its caller [unify_tuple]
     compares the lengths first *)
  Lemma thread_list : forall l1 l2 m us m',
    Forall DomL l1 -> Forall DomR l2 -> List.length l1 = List.length l2 -> Inv m ->
    unify_list fa f l1 l2 m = Ok (us, m') -> Inv m' /\ extends m m' /\ Forall2 (Rel m') l1 l2.
  Proof.
    induction l1 as [|a r1 IH]; intros [|b r2] m us m' H1 H2 Hlen Hm HU; try discriminate Hlen.
    - injection HU as _ <-. auto.
    - inversion H1 as [|? ? Ha Hr1]; inversion H2 as [|? ? Hb Hr2]; subst.
      rewrite unify_list_cons in HU.
      apply rbind_ok in HU. destruct HU as [[u m1] [E1 HU]].
      apply rbind_ok in HU. destruct HU as [[us' m2] [E2 HU]]. injection HU as _ ->.
      destruct (step a b m u m1 Ha Hb Hm E1) as [Hm1 [He1 HR1]].
      destruct (IH r2 m1 us' m' Hr1 Hr2 (eq_add_S _ _ Hlen) Hm1 E2) as [Hm2 [He2 HR2]].
      split; [exact Hm2|split; [eapply extends_trans; eauto|]].
      constructor; [eapply Rel_mono; eauto|exact HR2].
  Qed.

  Lemma thread_fields f2 : forall f1 m us m',
    (forall n a, In (n, a) f1 -> DomL a) -> (forall n b, In (n, b) f2 -> DomR b) -> Inv m ->
    unify_fields fa f f2 f1 m = Ok (us, m') -> Inv m' /\ extends m m' /\ fields_rel (Rel m') f1 f2.
  Proof.
    induction f1 as [|[n a] r1 IH]; intros m us m' H1 H2 Hm HU.
    - injection HU as _ <-. split; [exact Hm|split; [auto|]]. intros ? ? [].
    - rewrite unify_fields_cons in HU. destruct (assoc n f2) as [b|] eqn:Eb; [|discriminate HU].
      apply rbind_ok in HU. destruct HU as [[u m1] [E1 HU]].
      apply rbind_ok in HU. destruct HU as [[us' m2] [E2 HU]]. injection HU as _ ->.
      destruct (step a b m u m1 (H1 n a (or_introl Logic.eq_refl)) (H2 n b (assoc_In _ _ _ Eb)) Hm E1)
        as [Hm1 [He1 HR1]].
      destruct (IH m1 us' m' (fun n' a' Hin => H1 n' a' (or_intror Hin)) H2 Hm1 E2) as [Hm2 [He2 HR2]].
      split; [exact Hm2|split; [eapply extends_trans; eauto|]].
      intros n' a' [[= <- <-]|Hin]; [|auto]. exists b. split; [exact Eb|eapply Rel_mono; eauto].
  Qed.
End Thread.

Definition ground_wf (m : subst) : Prop := ground_subst m = true /\ subst_wf m = true.
Definition ground_ty (y : ty) : Prop := simple y = true /\ wf_ty y = true /\ slot_free y = true.

Lemma ground_ty_map k v : ground_ty (TMap k v) -> ground_ty k /\ ground_ty v.
Proof.
  intros [Hs [Hw Hf]]. apply wf_map in Hw. simpl in Hs, Hf. apply andb_true_iff in Hs. apply andb_true_iff in Hf.
  unfold ground_ty. tauto.
Qed.

Lemma ground_ty_obj fs : ground_ty (TObj fs) -> forall n b, In (n, b) fs -> ground_ty b.
Proof.
  intros [Hs [Hw Hf]] n b Hin. apply wf_obj in Hw. simpl in Hs, Hf. rewrite forallb_forall in Hs, Hf.
  repeat split; [apply (Hs _ Hin)|apply (proj2 Hw n b Hin)|apply (Hf _ Hin)].
Qed.

Lemma ground_ty_tuple l :
  forallb simple l = true -> wf_ty (TTuple l) = true -> slot_free (TTuple l) = true -> Forall ground_ty l.
Proof.
  intros Hs Hw Hf. apply wf_tuple in Hw. simpl in Hf. rewrite forallb_forall in Hs, Hf. rewrite Forall_forall in *.
  intros b Hin. repeat split; auto.
Qed.

Definition matches (m : subst) (x y : ty) : Prop := inst m x y = true.

Lemma ground_wf_refl m : ground_wf m -> extends m m.
Proof. intros [_ Hw]. apply extends_refl. exact Hw. Qed.

Lemma matches_mono m m' a b : ground_wf m -> ground_wf m' -> extends m m' -> matches m a b -> matches m' a b.
Proof. intros [_ Hw] [_ Hw']. apply inst_mono; assumption. Qed.

Lemma unify_sound_simple fa : forall f x y m r m',
  simple x = true -> ground_ty y -> ground_wf m -> unify fa f x y m = Ok (r, m') -> keeps ground_wf matches m x y m'.
Proof.
  induction f as [|f IH]; intros x y m r m' Hsx Hy Hm HU; [discriminate HU|].
  pose proof (slot_free_not_var _ (proj2 (proj2 Hy))) as Hnv.
  pose proof (keeps_same _ matches ground_wf_refl m x y Hm) as Hsame. unfold matches in *.
  destruct (is_var x) eqn:Evx.
  { destruct x; try discriminate Evx. rewrite unify_var in HU by exact Hnv.
    apply bind_var_inv in HU. destruct HU as [E [_ [-> Hk]]]. destruct Hy as [Hsy [Hwy Hfy]].
    apply asub_ground_id in E; [|exact Hfy]. subst r. destruct Hm as [Hg Hw].
    split; [split; [apply ground_update|apply wf_update]; assumption|].
    split; [apply extends_update; assumption|].
    rewrite inst_var, assoc_update_same. apply eq_refl. exact Hwy. }
  destruct (unify_shape _ _ _ _ _ _ HU Evx Hnv) as [->|[->|Hk]].
  - rewrite unify_nonvar_bot in HU by exact Evx. injection HU as _ <-. apply Hsame, inst_nonvar_bot, Evx.
  - rewrite unify_top in HU by exact Hnv. injection HU as _ <-. apply Hsame, inst_top.
  - destruct (is_composite x) eqn:Ecx.
    2: { rewrite unify_leaf in HU by assumption. injection HU as _ <-. apply Hsame, inst_leaf; assumption. }
    clear Hsame.
    destruct x as [| | | | | | | |ex|kx vx|fx| |ex]; try discriminate Ecx; try discriminate Hsx;
      destruct y as [| | | | | | | |ey|ky vy|fy| |ey]; try discriminate Hk; clear Evx Ecx Hk Hnv.
    1,4: (* list, maybe *) rewrite ?unify_tlist, ?unify_tmaybe in HU; apply rbind_ok in HU;
      destruct HU as [[e m1] [E HU]]; injection HU as _ ->; exact (IH ex ey m e m' Hsx Hy Hm E).
    + (* map *)
      rewrite unify_tmap in HU.
      apply rbind_ok in HU. destruct HU as [[k m1] [E1 HU]].
      apply rbind_ok in HU. destruct HU as [[v m2] [E2 HU]].
      apply rbind_ok in HU. destruct HU as [t [_ HU]]. injection HU as _ ->.
      apply andb_true_iff in Hsx. destruct Hsx as [Hsx1 Hsx2]. destruct (ground_ty_map _ _ Hy) as [Hy1 Hy2].
      destruct (IH kx ky m k m1 Hsx1 Hy1 Hm E1) as [Hm1 [He1 Hi1]].
      destruct (IH vx vy m1 v m' Hsx2 Hy2 Hm1 E2) as [Hm2 [He2 Hi2]].
      split; [exact Hm2|split; [eapply extends_trans; eauto|]].
      rewrite inst_tmap, (matches_mono _ _ _ _ Hm1 Hm2 He2 Hi1), Hi2. reflexivity.
    + (* obj *)
      rewrite unify_obj in HU.
      destruct (Nat.eqb (List.length fx) (List.length fy)) eqn:El; [|discriminate HU].
      apply rbind_ok in HU. destruct HU as [[us m1] [E HU]]. injection HU as _ ->.
      simpl in Hsx. rewrite forallb_forall in Hsx.
      destruct (thread_fields fa f ground_wf (fun a => simple a = true) ground_ty matches
                  ground_wf_refl matches_mono IH fy fx m us m' (fun n a Hin => Hsx _ Hin) (ground_ty_obj _ Hy) Hm E)
        as [Hm1 [He1 Hi1]].
      split; [exact Hm1|split; [exact He1|]]. rewrite inst_obj, El. apply (allb_get_spec (@assoc)). exact Hi1.
Qed.

Lemma pat_ok_cases x : pat_ok x = true -> (exists l, x = TTuple l /\ forallb simple l = true) \/ simple x = true.
Proof. destruct x; simpl; intros H; eauto. Qed.

(* the occurs check has no case for a tuple *)
Lemma bind_var_tuple fa n l m r : bind_var fa n (TTuple l) m = Ok r -> False.
Proof.
  destruct r as [r m']. intros H. apply bind_var_inv in H. destruct H as [E [F _]].
  destruct fa as [|fa]; [discriminate E|]. simpl in E. apply rbind_ok in E. destruct E as [us [_ [= <-]]].
  discriminate F.
Qed.

(* a tuple stands for an argument list and occurs outermost only *)
Lemma unify_tuple_cases fa f x y m r m' :
  unify fa (S f) x y m = Ok (r, m') -> (exists l, x = TTuple l) \/ (exists l, y = TTuple l) ->
  (exists l1 l2 ks, x = TTuple l1 /\ y = TTuple l2 /\ List.length l1 = List.length l2 /\
                    unify_list fa f l1 l2 m = Ok (ks, m')) \/
  (y = TBot /\ is_var x = false /\ m' = m) \/ (x = TTop /\ m' = m).
Proof.
  intros HU Ht.
  destruct (is_var x) eqn:Evx.
  { exfalso. destruct x; try discriminate Evx. destruct Ht as [[l E]|[l ->]]; [discriminate E|].
    rewrite unify_var in HU by reflexivity. exact (bind_var_tuple _ _ _ _ _ HU). }
  destruct (is_var y) eqn:Evy.
  { exfalso. destruct y; try discriminate Evy. destruct Ht as [[l ->]|[l E]]; [|discriminate E].
    rewrite unify_var_r in HU by reflexivity. exact (bind_var_tuple _ _ _ _ _ HU). }
  destruct (unify_shape _ _ _ _ _ _ HU Evx Evy) as [->|[->|Hk]].
  - right. left. rewrite unify_nonvar_bot in HU by exact Evx. injection HU as _ <-. auto.
  - right. right. rewrite unify_top in HU by exact Evy. injection HU as _ <-. auto.
  - left. assert (exists l1 l2, x = TTuple l1 /\ y = TTuple l2) as (l1 & l2 & -> & ->).
    { destruct Ht as [[l ->]|[l ->]]; [destruct y|destruct x]; try discriminate Hk; eauto. }
    rewrite unify_tuple in HU. destruct (Nat.eqb (List.length l1) (List.length l2)) eqn:El; [|discriminate HU].
    apply rbind_ok in HU. destruct HU as [[ks m1] [E HU]]. injection HU as _ ->.
    exists l1, l2, ks. apply Nat.eqb_eq in El. auto.
Qed.

Lemma match_sound_keeps : forall fa f x y m r m',
  pat_ok x = true -> pat_ok y = true -> wf_ty y = true -> slot_free y = true -> ground_wf m ->
  unify fa f x y m = Ok (r, m') -> keeps ground_wf matches m x y m'.
Proof.
  intros fa f x y m r m' Hpx Hpy Hwy Hfy Hm HU.
  destruct f as [|f]; [discriminate HU|].
  assert (simple x = true /\ simple y = true \/ (exists l, x = TTuple l) \/ (exists l, y = TTuple l)) as [[Hsx Hsy]|Ht].
  { destruct (pat_ok_cases _ Hpx) as [[l [-> _]]|Hsx]; [eauto|].
    destruct (pat_ok_cases _ Hpy) as [[l [-> _]]|Hsy]; eauto. }
  { exact (unify_sound_simple fa (S f) x y m r m' Hsx (conj Hsy (conj Hwy Hfy)) Hm HU). }
  destruct (unify_tuple_cases _ _ _ _ _ _ _ HU Ht) as [(l1 & l2 & ks & -> & -> & El & E)|[(-> & Evx & ->)|(-> & ->)]].
  - destruct (thread_list fa f ground_wf (fun a => simple a = true) ground_ty matches
                ground_wf_refl matches_mono (unify_sound_simple fa f) l1 l2 m ks m'
                (forallb_Forall simple _ l1 (fun _ H => H) Hpx) (ground_ty_tuple _ Hpy Hwy Hfy) El Hm E)
      as [Hm1 [He1 Hi1]].
    split; [exact Hm1|split; [exact He1|]]. unfold matches. rewrite inst_tuple. apply forallb2_Forall2. exact Hi1.
  - apply (keeps_same _ matches ground_wf_refl); [exact Hm|]. apply inst_nonvar_bot. exact Evx.
  - apply (keeps_same _ matches ground_wf_refl); [exact Hm|]. apply inst_top.
Qed.

(* Without its hypothesis that the incoming substitution binds well-formed types only, C17_match_sound fails: bind a
   variable to an ill-formed object type (duplicate field names); [ty_eqb] is not reflexive on such a type, so
   [extends m m] fails even though [unify] returns [m] unchanged. *)
Lemma match_sound_counterexample :
  let bad := TObj [("x"%string, TNum); ("x"%string, TStr)] in
  let m := [("a"%string, bad)] in
  pat_ok TNum = true /\ wf_ty TNum = true /\ slot_free TNum = true /\ ground_subst m = true /\
  unify 1 1 TNum TNum m = Ok (TNum, m) /\ ~ extends m m.
Proof.
  cbv zeta. repeat split; try reflexivity.
  intros He. destruct (He "a"%string _ Logic.eq_refl) as [t' [Ha Ht]].
  simpl in Ha. inversion Ha; subst. discriminate Ht.
Qed.

(* C17_match_sound *)
Lemma match_sound_partial : forall fa f x y m r m',
  pat_ok x = true -> pat_ok y = true -> wf_ty x = true -> wf_ty y = true ->
  slot_free y = true -> ground_subst m = true ->
  subst_wf m = true ->
  unify fa f x y m = Ok (r, m') ->
  ground_subst m' = true /\ extends m m' /\ no_self_binding m' /\ inst m' x y = true.
Proof.
  intros fa f x y m r m' Hpx Hpy _ Hwy Hfy Hg Hw HU.
  destruct (match_sound_keeps fa f x y m r m' Hpx Hpy Hwy Hfy (conj Hg Hw) HU) as [[Hg1 Hw1] [He1 Hi1]].
  repeat split; auto using ground_no_self_binding.
Qed.

(* the substitution returned meets the hypothesis [subst_wf] of [match_sound_partial] again *)
Lemma match_sound_partial_wf : forall fa f x y m r m',
  pat_ok x = true -> pat_ok y = true -> wf_ty y = true ->
  slot_free y = true -> ground_subst m = true -> subst_wf m = true ->
  unify fa f x y m = Ok (r, m') -> subst_wf m' = true.
Proof.
  intros fa f x y m r m' Hpx Hpy Hwy Hfy Hg Hw HU.
  apply (match_sound_keeps fa f x y m r m' Hpx Hpy Hwy Hfy (conj Hg Hw) HU).
Qed.

Lemma extends_update_target n y m s t :
  extends m s -> assoc n s = Some t -> ty_eqb y t = true -> extends (update n y m) s.
Proof.
  intros He Ha Hy n' t' Ha'. destruct (String.eqb_spec n' n) as [E|E].
  - subst n'. rewrite assoc_update_same in Ha'. inversion Ha'; subst. eauto.
  - rewrite assoc_update_other in Ha' by assumption. auto.
Qed.

(* [unify] returns one of the two; this is what lets the map case of completeness pass [mk_map] *)
Lemma unify_keyable fa f x y m r m' :
  slot_free y = true -> unify fa f x y m = Ok (r, m') -> keyable x = true -> keyable y = true -> keyable r = true.
Proof.
  intros Hfy HU Hkx Hky. destruct f as [|f]; [discriminate HU|].
  pose proof (slot_free_not_var _ Hfy) as Hnv.
  destruct (is_var x) eqn:Evx.
  { destruct x; try discriminate Evx. rewrite unify_var in HU by exact Hnv.
    apply bind_var_inv in HU. destruct HU as [E _]. apply asub_ground_id in E; [|exact Hfy]. subst r. exact Hky. }
  assert (r = x) as ->; [|exact Hkx].
  destruct (unify_shape _ _ _ _ _ _ HU Evx Hnv) as [->|[->|Hk]].
  - rewrite unify_nonvar_bot in HU by exact Evx. congruence.
  - rewrite unify_top in HU by exact Hnv. congruence.
  - rewrite unify_leaf in HU; [congruence|exact Evx| |exact Hk]. destruct x; try discriminate Hkx; reflexivity.
Qed.

(* [fa] is the fuel for [apply_subst] on the variable-free side.  The witness [s] is fixed: every substitution on the
   way stays below it ([extends m' s]), which is why [unify] finds each variable either unbound or bound to a type
   equal to the one [s] gives it. *)
Definition complete_at (fa : nat) (s : subst) (f : nat) : Prop :=
  forall x y m,
    simple x = true -> wf_ty x = true -> ground_ty y -> ground_subst m = true ->
    ty_size y <= fa -> ty_size x <= f -> extends m s -> inst s x y = true ->
    exists r m', unify fa f x y m = Ok (r, m') /\ ground_subst m' = true /\ extends m' s.

Definition pat_le (f : nat) (a : ty) : Prop := simple a = true /\ wf_ty a = true /\ ty_size a <= f.
Definition ground_le (fa : nat) (b : ty) : Prop := ground_ty b /\ ty_size b <= fa.

Lemma unify_fields_complete fa s f f2 :
  complete_at fa s f -> (forall n b, In (n, b) f2 -> ground_le fa b) ->
  forall f1, (forall n a, In (n, a) f1 -> pat_le f a) ->
  forall m, ground_subst m = true -> extends m s -> allb_get (@assoc) (inst s) f2 f1 = true ->
  exists us m', unify_fields fa f f2 f1 m = Ok (us, m') /\ ground_subst m' = true /\ extends m' s.
Proof.
  intros HC Hf2. induction f1 as [|[n a] r1 IH]; intros Hf1 m Hg He Hi; simpl in Hi.
  - simpl. eauto.
  - rewrite unify_fields_cons. apply andb_true_iff in Hi. destruct Hi as [Hi1 Hi2].
    destruct (assoc n f2) as [b|] eqn:Eb; [|discriminate Hi1].
    destruct (Hf2 n b (assoc_In _ _ _ Eb)) as [Hb Hbs].
    destruct (Hf1 n a (or_introl Logic.eq_refl)) as [Ha1 [Ha2 Ha3]].
    destruct (HC a b m Ha1 Ha2 Hb Hg Hbs Ha3 He Hi1) as [u [m1 [E1 [Hg1 He1]]]].
    rewrite E1. simpl.
    destruct (IH (fun n' a' Hin => Hf1 n' a' (or_intror Hin)) m1 Hg1 He1 Hi2) as [us [m2 [E2 [Hg2 He2]]]].
    rewrite E2. simpl. eauto.
Qed.

Lemma unify_list_complete fa s f :
  complete_at fa s f ->
  forall l1 l2 m, Forall (pat_le f) l1 -> Forall (ground_le fa) l2 ->
  ground_subst m = true -> extends m s -> forallb2 (inst s) l1 l2 = true ->
  exists us m', unify_list fa f l1 l2 m = Ok (us, m') /\ ground_subst m' = true /\ extends m' s.
Proof.
  intros HC. induction l1 as [|a r1 IH]; intros [|b r2] m H1 H2 Hg He Hi; simpl in Hi; try discriminate Hi.
  - simpl. eauto.
  - apply andb_true_iff in Hi. destruct Hi as [Hi1 Hi2].
    inversion H1 as [|? ? [Ha1 [Ha2 Ha3]] Hr1]; inversion H2 as [|? ? [Hb Hbs] Hr2]; subst.
    destruct (HC a b m Ha1 Ha2 Hb Hg Hbs Ha3 He Hi1) as [u [m1 [E1 [Hg1 He1]]]].
    rewrite unify_list_cons, E1. simpl.
    destruct (IH r2 m1 Hr1 Hr2 Hg1 He1 Hi2) as [us [m2 [E2 [Hg2 He2]]]].
    rewrite E2. simpl. eauto.
Qed.

Lemma unify_complete_simple fa s :
  subst_wf s = true -> forall f, complete_at fa s f.
Proof.
  intros Hws.
  induction f as [|f IH]; intros x y m Hsx Hwx Hy Hg Hfa Hf He Hi.
  { pose proof (ty_size_pos x). lia. }
  pose proof (slot_free_not_var _ (proj2 (proj2 Hy))) as Hnv.
  destruct (is_var x) eqn:Evx.
  { (* the variable is bound to [y]: [s] binds it to an equal type, and so did [m] if it bound it at all *)
    destruct x; try discriminate Evx. destruct Hy as [Hsy [Hwy Hfy]].
    rewrite inst_var in Hi. destruct (assoc n s) as [t|] eqn:Ea; [|discriminate Hi].
    rewrite unify_var by assumption. rewrite bind_var_ok; try assumption.
    + exists y, (update n y m). split; [reflexivity|]. split; [apply ground_update; assumption|].
      apply (extends_update_target n y m s t He Ea). apply eqb_sym_imp; [exact (wf_assoc _ _ _ Hws Ea)|exact Hwy|exact Hi].
    + intros k Hk. destruct (He n k Hk) as [t' [Ha' Hkt]]. rewrite Ea in Ha'. inversion Ha'; subst.
      eapply eqb_trans; eauto. }
  destruct (inst_shape _ _ _ Hi Evx) as [->|[->|Hk]].
  - rewrite unify_nonvar_bot by exact Evx. eauto.
  - rewrite unify_top by exact Hnv. eauto.
  - destruct (is_composite x) eqn:Ecx.
    2: { rewrite unify_leaf by assumption. eauto. }
    destruct x as [| | | | | | | |ex|kx vx|fx| |ex]; try discriminate Ecx; try discriminate Hsx;
      destruct y as [| | | | | | | |ey|ky vy|fy| |ey]; try discriminate Hk; clear Evx Ecx Hk Hnv; simpl in Hfa, Hf.
    1,4: (* list, maybe *) rewrite ?unify_tlist, ?unify_tmaybe; rewrite ?inst_tlist, ?inst_tmaybe in Hi;
      destruct (IH ex ey m Hsx Hwx Hy Hg ltac:(lia) ltac:(lia) He Hi) as [e [m1 [E H1]]]; rewrite E; simpl; eauto.
    + (* map *)
      rewrite unify_tmap. rewrite inst_tmap in Hi. apply andb_true_iff in Hi. destruct Hi as [Hi1 Hi2].
      apply wf_map in Hwx. destruct Hwx as [Hkx [Hwx1 Hwx2]].
      apply andb_true_iff in Hsx. destruct Hsx as [Hsx1 Hsx2].
      pose proof (proj1 (wf_map _ _ (proj1 (proj2 Hy)))) as Hky. destruct (ground_ty_map _ _ Hy) as [Hy1 Hy2].
      destruct (IH kx ky m Hsx1 Hwx1 Hy1 Hg ltac:(lia) ltac:(lia) He Hi1) as [k [m1 [E1 [Hg1 He1]]]].
      rewrite E1. simpl.
      destruct (IH vx vy m1 Hsx2 Hwx2 Hy2 Hg1 ltac:(lia) ltac:(lia) He1 Hi2) as [v [m2 [E2 H2]]].
      rewrite E2. simpl. unfold mk_map. rewrite (unify_keyable _ _ _ _ _ _ _ (proj2 (proj2 Hy1)) E1 Hkx Hky). simpl. eauto.
    + (* obj *)
      rewrite unify_obj. rewrite inst_obj in Hi. apply andb_true_iff in Hi. destruct Hi as [Hl Hi].
      rewrite Hl. simpl.
      apply wf_obj in Hwx. destruct Hwx as [_ Hwx]. simpl in Hsx. rewrite forallb_forall in Hsx.
      destruct (unify_fields_complete fa s f fy IH) with (f1 := fx) (m := m) as [us [m1 [E H1]]];
        try assumption.
      * intros n b Hin. split; [exact (ground_ty_obj _ Hy n b Hin)|].
        pose proof (size_in_fields _ _ Hin). simpl in *. lia.
      * intros n a Hin. repeat split; [apply (Hsx _ Hin)|eauto|].
        pose proof (size_in_fields _ _ Hin). simpl in *. lia.
      * rewrite E. simpl. eauto.
Qed.

(* C17_match_complete needs a well-formed witness substitution: on an ill-formed object type [ty_eqb]
   is not symmetric/Euclidean, so one witness can be "equal" to two field-wise different types, which the matcher
   (comparing the two types with each other) rejects. *)
Lemma match_complete_counterexample :
  let g1 := TObj [("x"%string, TNum); ("z"%string, TStr)] in
  let g2 := TObj [("x"%string, TNum); ("w"%string, TStr)] in
  let bad := TObj [("x"%string, TNum); ("x"%string, TNum)] in
  let x := TTuple [TVar "a"%string; TVar "a"%string] in
  let y := TTuple [g1; g2] in
  let s := [("a"%string, bad)] in
  pat_ok x = true /\ pat_ok y = true /\ wf_ty x = true /\ wf_ty y = true /\ slot_free y = true /\
  ground_subst [] = true /\ ty_size x + ty_size y < 100 /\
  (ground_subst s = true /\ extends [] s /\ inst s x y = true) /\
  unify 100 100 x y [] = Fail.
Proof.
  cbv zeta. repeat split; try reflexivity.
  - vm_compute. repeat constructor.
  - intros n t Ha. discriminate Ha.
Qed.

(* C17_match_complete *)
Lemma match_complete_partial : forall fa f x y m,
  pat_ok x = true -> pat_ok y = true -> wf_ty x = true -> wf_ty y = true ->
  slot_free y = true -> ground_subst m = true ->
  ty_size x + ty_size y < fa -> ty_size x + ty_size y < f ->
  (exists s, ground_subst s = true /\ subst_wf s = true /\ extends m s /\ inst s x y = true) ->
  exists r m', unify fa f x y m = Ok (r, m').
Proof.
  intros fa f x y m Hpx Hpy Hwx Hwy Hfy Hg Hfa Hf [s [Hgs [Hws [He Hi]]]].
  destruct f as [|f]; [lia|].
  pose proof (slot_free_not_var _ Hfy) as Hnv.
  destruct (pat_ok_cases _ Hpx) as [[l1 [-> Hs1]]|Hsx].
  - destruct (inst_shape _ _ _ Hi Logic.eq_refl) as [->|[Et|Hk]]; [|discriminate Et|].
    + rewrite unify_nonvar_bot by reflexivity. eauto.
    + destruct y; try discriminate Hk. rewrite unify_tuple. rewrite inst_tuple in Hi.
      pose proof (Forall2_len _ _ _ (proj1 (forallb2_Forall2 _ _ _) Hi)) as Hlen.
      apply Nat.eqb_eq in Hlen. rewrite Hlen. simpl.
      pose proof (ground_ty_tuple _ Hpy Hwy Hfy) as Hgl. apply wf_tuple in Hwx. simpl in Hfa, Hf.
      rewrite forallb_forall in Hs1. rewrite Forall_forall in Hwx, Hgl.
      destruct (unify_list_complete fa s f (unify_complete_simple fa s Hws f) l1 l m) as [us [m1 [E _]]];
        try assumption.
      { apply Forall_forall. intros a Hin. pose proof (size_in_list _ _ Hin). repeat split; auto. lia. }
      { apply Forall_forall. intros b Hin. pose proof (size_in_list _ _ Hin). split; auto. lia. }
      rewrite E. simpl. eauto.
  - destruct (pat_ok_cases _ Hpy) as [[l2 [-> Hs2]]|Hsy].
    + (* only top faces a tuple: a ground substitution binds no variable to one *)
      destruct (is_var x) eqn:Evx.
      { exfalso. destruct x; try discriminate Evx.
        rewrite inst_var in Hi. destruct (assoc n s) as [t|] eqn:Ea; [|discriminate Hi].
        destruct (ground_assoc _ _ _ Hgs Ea) as [_ Hst].
        destruct t; try discriminate Hi. discriminate Hst. }
      destruct (inst_shape _ _ _ Hi Evx) as [Eb|[->|Hk]]; [discriminate Eb| |].
      * rewrite unify_top by reflexivity. eauto.
      * destruct x; try discriminate Hk; discriminate Hsx.
    + destruct (unify_complete_simple fa s Hws (S f) x y m Hsx Hwx (conj Hsy (conj Hwy Hfy)) Hg)
        as [r [m' [E _]]]; try assumption; try lia.
      eauto.
Qed.

Print Assumptions eq_refl.
Print Assumptions eq_sym.
Print Assumptions eq_trans.
Print Assumptions eq_structural.
Print Assumptions bot_left.
Print Assumptions match_sound_counterexample.
Print Assumptions match_sound_partial.
Print Assumptions match_sound_partial_wf.
Print Assumptions match_complete_counterexample.
Print Assumptions match_complete_partial.
