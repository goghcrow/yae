(* The reference evaluator of Model/Eval.v.  The local functions and the branches nested in [eval] are given names here,
   text for text, so that the unfolding equations (one for each expression form but the literals) hold by [reflexivity] and
   lemmas can be stated about the pieces; then [avoid] for subscripts, members and calls. *)
From Coq Require Import List String Bool NArith ZArith Lia.
From Yae Require Import Base.Sexp Model.Ty Gen.Generated Model.Unify Model.Num Model.Lexer Model.Literal Model.Cst Model.Check
  Model.Val Model.Render Model.ValSpec Model.Builtins Model.Eval Proofs.ListFacts Proofs.ValFacts.
Import ListNotations.
Local Open Scope list_scope.
Local Open Scope string_scope.

Section EvalEq.
  Variables (ops : numops) (orc : oracles) (fe : fenv) (rho : venv).
  Notation ev := (eval ops orc fe rho).

  Definition map_go (g : aexpr -> M val) :=
    fix go (kvs : list (aexpr * aexpr)) (acc : list (list N * val)) : M (list (list N * val)) :=
      match kvs with
      | [] => ret acc
      | (k, v) :: r =>
          let^ kv := g k in let^ kk := key_of ops kv in
          let^ vv := g v in go r (kput kk vv acc)
      end.

  Definition lazy_call (sg : fsig) (ths : list (unit -> M val)) : M val :=
    (if sig_is_builtin sg then apply_lazy sg else host_lazy (s_name sg)) ths.

  Definition do_call (f : nat) (sg : fsig) (args : list aexpr) : M val :=
    if s_lazy sg then lazy_call sg (map (fun x (_ : unit) => ev f x) args)
    else let^ vs := mmapM (ev f) args in apply_strict ops orc sg vs.

  Definition list_load_m (iv : val) (vs : list val) : M val :=
    let^ n := as_num iv in
    let idx := to_i64 ops n in
    if Z.ltb idx 0 || Z.leb (Z.of_nat (len vs)) idx then fail FIndex
    else match nth_error vs (Z.to_nat idx) with Some e => ret e | None => fail FIndex end.

  Definition map_load_m (kv : val) (kvs : list (list N * val)) : M val :=
    let^ kk := key_of ops kv in
    match kget kk kvs with Some e => ret e | None => fail FKey end.

  Definition member_m (ov : val) (idx : nat) (name : string) : M val :=
    match ov with
    | VObj t vs => match obj_load t vs idx name with Some e => ret e | None => fault XNil end
    | _ => fault XTypeConf
    end.

  Lemma eval_list f t es : ev (S f) (AList t es) =
    match es with [] => ret (VList (TList TBot) []) | _ => let^ vs := mmapM (ev f) es in ret (VList t vs) end.
  Proof. reflexivity. Qed.
  Lemma eval_map f t kvs : ev (S f) (AMap t kvs) =
    match kvs with [] => ret (VMap (TMap TBot TBot) [])
              | _ => let^ entries := map_go (ev f) kvs [] in ret (VMap t entries) end.
  Proof. reflexivity. Qed.
  Lemma eval_obj f t fs : ev (S f) (AObj t fs) =
    match fs with [] => ret (VObj (TObj []) [])
             | _ => let^ vs := mmapM (fun nf => ev f (snd nf)) fs in ret (VObj t vs) end.
  Proof. reflexivity. Qed.
  Lemma eval_ident f c name : ev (S f) (AIdent c name) =
    match assoc name rho with Some v => ret v | None => fault XOther end.
  Proof. reflexivity. Qed.
  Lemma eval_call f c key idx ft callee args : ev (S f) (ACall c key idx ft callee args) =
    if String.eqb key "" then
      let^ fv := ev f callee in
      match fv with
      | VFun (TFun n ps r) name lz => do_call f (mkSig name ps r lz) args
      | _ => fault XTypeConf
      end
    else match lookup_fn fe key idx with Some sg => do_call f sg args | None => fault XOther end.
  Proof. reflexivity. Qed.
  Lemma eval_static_call f c key idx ft callee args sg : key <> "" -> lookup_fn fe key idx = Some sg ->
    ev (S f) (ACall c key idx ft callee args) = do_call f sg args.
  Proof. intros Hk Hl. apply String.eqb_neq in Hk. rewrite eval_call, Hk, Hl. reflexivity. Qed.
  Lemma eval_sub f c vt v i : ev (S f) (ASub c vt v i) =
    let^ x := ev f v in
    match x with
    | VList _ vs => let^ iv := ev f i in list_load_m iv vs
    | VMap _ kvs => let^ kv := ev f i in map_load_m kv kvs
    | _ => fault XUnreachable
    end.
  Proof. reflexivity. Qed.
  Lemma eval_member f c ot idx o name : ev (S f) (AMember c ot idx o name) = let^ ov := ev f o in member_m ov idx name.
  Proof. reflexivity. Qed.
End EvalEq.

Definition lazy_if (ths : list (unit -> M val)) : M val :=
  match ths with
  | [c; a; b] => let^ cv := c tt in let^ cb := as_bool cv in if cb then a tt else b tt
  | _ => fault XOther
  end.
Definition lazy_and (ths : list (unit -> M val)) : M val :=
  match ths with
  | [a; b] => let^ av := a tt in let^ ab := as_bool av in
              if ab then (let^ bv := b tt in let^ bb := as_bool bv in ret (VBool bb)) else ret (VBool false)
  | _ => fault XOther
  end.
Definition lazy_or (ths : list (unit -> M val)) : M val :=
  match ths with
  | [a; b] => let^ av := a tt in let^ ab := as_bool av in
              if ab then ret (VBool true) else (let^ bv := b tt in let^ bb := as_bool bv in ret (VBool bb))
  | _ => fault XOther
  end.

Lemma apply_lazy_eq sg ths : apply_lazy sg ths =
  match classify (s_name sg) (s_params sg) with
  | Some BIf => lazy_if ths | Some BAnd => lazy_and ths | Some BOr => lazy_or ths
  | _ => host_lazy (s_name sg) ths
  end.
Proof. reflexivity. Qed.
(* "lazyif" and "both" are the two lazy functions of the harness's host library, [host_lazy] of Model/Eval.v *)
Lemma host_lazy_eq name ths : host_lazy name ths =
  if name =? "lazyif" then let^ _ := emit (EvHost name []) in lazy_if ths
  else if name =? "both" then let^ _ := emit (EvHost name []) in lazy_and ths
  else fault XOther.
Proof. reflexivity. Qed.
Lemma host_lazy_lazyif ths : host_lazy "lazyif" ths = let^ _ := emit (EvHost "lazyif" []) in lazy_if ths.
Proof. reflexivity. Qed.
Lemma host_lazy_both ths : host_lazy "both" ths = let^ _ := emit (EvHost "both" []) in lazy_and ths.
Proof. reflexivity. Qed.

Lemma lazy_if_val c a b tc cv : c tt = (tc, OVal (VBool cv)) ->
  lazy_if [c; a; b] = (let '(t, o) := (if cv then a else b) tt in ((tc ++ t)%list, o)).
Proof. intros H. unfold lazy_if. rewrite H. destruct cv; cbn; [destruct (a tt)|destruct (b tt)]; reflexivity. Qed.

Lemma bool_operand (m : M val) :
  (let^ v := m in let^ b := as_bool v in ret (VBool b)) =
  (let '(t, o) := m in (t, match o with OVal (VBool bv) => OVal (VBool bv) | OVal _ => OFault XTypeConf | x => x end)).
Proof. destruct m as [t [v|k|k]]; try reflexivity. destruct v; cbn; rewrite ?app_nil_r; reflexivity. Qed.

(* beside those of the built-ins: FIndex and FKey come from subscripts, FHost from the host library, XNil from a field
   that is not there *)
Section AvoidCall.
  Variables (ops : numops) (orc : oracles) (fe : fenv) (rho : venv).
  Variable bfail : failk -> Prop.
  Variable bfault : faultk -> Prop.
  Hypothesis Hother : ~ bfault XOther.
  Hypothesis Hconf : ~ bfault XTypeConf.
  Hypothesis Hnil : ~ bfault XNil.
  Hypothesis Hindex : ~ bfail FIndex.
  Hypothesis Hkey : ~ bfail FKey.
  Hypothesis Hhost : ~ bfail FHost.
  Hypothesis Hmod : ~ bfail FModZero.
  Hypothesis Hregex : ~ bfail FRegex.
  Notation av_ := (avoid bfail bfault).
  Notation ev := (eval ops orc fe rho).

  (* for the straight-line bodies: binds, matches and conditionals down to leaves that are [ret], [emit], a coercion, or a
     failure or fault among the hypotheses *)
  Ltac av_call :=
    repeat first
      [ apply av_ret | apply av_emit | apply av_fail; av_side | apply av_fault; av_side
      | apply av_as_num; assumption | apply av_as_bool; assumption
      | apply av_bind; [|intros]
      | match goal with |- avoid _ _ (match ?x with _ => _ end) => destruct x end
      | match goal with |- avoid _ _ (if ?c then _ else _) => destruct c end
      | progress cbv zeta ].

  Lemma av_list_load iv vs : av_ (list_load_m ops iv vs).
  Proof using Hconf Hindex. unfold list_load_m. av_call. Qed.

  Lemma av_map_load kv kvs : av_ (map_load_m ops kv kvs).
  Proof using Hother Hkey. unfold map_load_m. apply av_bind; [apply av_key_of; assumption|]. intros kk. av_call. Qed.

  Lemma av_member ov idx name : av_ (member_m ov idx name).
  Proof using Hconf Hnil. unfold member_m. av_call. Qed.

  Lemma av_map_go g : forall kvs, Forall (fun kv : aexpr * aexpr => av_ (g (fst kv)) /\ av_ (g (snd kv))) kvs ->
    forall acc, av_ (map_go ops g kvs acc).
  Proof using Hother.
    induction 1 as [|[k v] r [Hk Hv] _ IH]; intros acc; cbn [map_go]; [apply av_ret|].
    apply av_bind; [exact Hk|]. intros kv. apply av_bind; [apply av_key_of; assumption|].
    intros kk. apply av_bind; [exact Hv|]. intros vv. apply IH.
  Qed.

  Lemma av_host_strict name args : av_ (host_strict ops name args).
  Proof using Hother Hconf Hnil Hhost. unfold host_strict. av_call. Qed.

  Lemma av_apply_strict sg args : av_ (apply_strict ops orc sg args).
  Proof using Hother Hconf Hnil Hhost Hmod Hregex.
    unfold apply_strict. destruct (sig_is_builtin sg); [|apply av_host_strict].
    destruct (classify (s_name sg) (s_params sg)); [apply av_bsem; assumption|]. av_call.
  Qed.

  Lemma av_bool_bind {X} (m : M val) (k : bool -> M X) :
    av_ m -> (forall b, av_ (k b)) -> av_ (let^ v := m in let^ b := as_bool v in k b).
  Proof using Hconf. intros Hm Hk. apply av_bind; [exact Hm|]. intros v. apply av_bind; [apply av_as_bool, Hconf|exact Hk]. Qed.

  (* if, and, or run some of their thunks and test the results; a wrong number of thunks is XOther *)
  Lemma av_lazy_if ths : Forall (fun th : unit -> M val => av_ (th tt)) ths -> av_ (lazy_if ths).
  Proof using Hother Hconf.
    destruct ths as [|c [|a [|b [|]]]]; try (intros _; apply av_fault, Hother).
    rewrite !Forall_cons_iff. intros (Hc & Ha & Hb & _). apply av_bool_bind; [exact Hc|]. intros [|]; assumption.
  Qed.

  Lemma av_lazy_and ths : Forall (fun th : unit -> M val => av_ (th tt)) ths -> av_ (lazy_and ths).
  Proof using Hother Hconf.
    destruct ths as [|a [|b [|]]]; try (intros _; apply av_fault, Hother).
    rewrite !Forall_cons_iff. intros (Ha & Hb & _). apply av_bool_bind; [exact Ha|]. intros [|]; [|apply av_ret].
    apply av_bool_bind; [exact Hb|]. intros bb. apply av_ret.
  Qed.

  Lemma av_lazy_or ths : Forall (fun th : unit -> M val => av_ (th tt)) ths -> av_ (lazy_or ths).
  Proof using Hother Hconf.
    destruct ths as [|a [|b [|]]]; try (intros _; apply av_fault, Hother).
    rewrite !Forall_cons_iff. intros (Ha & Hb & _). apply av_bool_bind; [exact Ha|]. intros [|]; [apply av_ret|].
    apply av_bool_bind; [exact Hb|]. intros bb. apply av_ret.
  Qed.

  Lemma av_host_lazy name ths : Forall (fun th : unit -> M val => av_ (th tt)) ths -> av_ (host_lazy name ths).
  Proof using Hother Hconf.
    intros H. rewrite host_lazy_eq. destruct (name =? "lazyif"); [|destruct (name =? "both")].
    - apply av_bind; [apply av_emit|]. intros _. apply av_lazy_if, H.
    - apply av_bind; [apply av_emit|]. intros _. apply av_lazy_and, H.
    - apply av_fault, Hother.
  Qed.

  Lemma av_apply_lazy sg ths : Forall (fun th : unit -> M val => av_ (th tt)) ths -> av_ (apply_lazy sg ths).
  Proof using Hother Hconf.
    intros H. rewrite apply_lazy_eq. destruct (classify (s_name sg) (s_params sg)) as [b|]; [|apply av_host_lazy, H].
    destruct b; try (apply av_host_lazy, H); [apply av_lazy_if|apply av_lazy_and|apply av_lazy_or]; exact H.
  Qed.

  Lemma av_lazy_call sg ths : Forall (fun th : unit -> M val => av_ (th tt)) ths -> av_ (lazy_call sg ths).
  Proof using Hother Hconf. intros H. unfold lazy_call. destruct (sig_is_builtin sg); [apply av_apply_lazy|apply av_host_lazy]; exact H. Qed.

  Lemma av_do_call f sg args : Forall (fun x => av_ (ev f x)) args -> av_ (do_call ops orc fe rho f sg args).
  Proof using Hother Hconf Hnil Hhost Hmod Hregex.
    intros H. unfold do_call. destruct (s_lazy sg).
    - apply av_lazy_call, Forall_map, H.
    - apply av_bind; [apply av_mmapM, H|]. intros vs. apply av_apply_strict.
  Qed.
End AvoidCall.
