(* Proofs for Props/C05.v: the checker model [check] against the declarative typing relation [has_type].
   inferFun is treated by refinement ([rf]): [unify] on a simple pattern against a variable-free type refines a fuel-free
   matcher [mtch], and [infer_fun] a fuel-free [infer_spec], which is related to [instantiates].  Soundness is induction
   over the successful runs of [check] ([check_ind]); completeness composes "from some fuel on" facts ([settles]).
   The examples at the end show that the two clauses of [fenv_ok] that go beyond [sig_ok] are both needed. *)
From Coq Require Import List String Ascii Bool Arith NArith ZArith Lia FinFun.
From Yae Require Import Base.Sexp Model.Ty Gen.Generated Model.Unify Model.TySpec Model.Lexer Model.Literal Model.Cst
  Model.Check Model.CheckSpec Proofs.TyInd Proofs.ExprInd Proofs.ListFacts Proofs.C17Proofs.
Import ListNotations.
Local Open Scope nat_scope.
Local Open Scope string_scope.

Lemma cbind_ok {X Y} (r : cres X) (k : X -> cres Y) y : cbind r k = COk y -> exists x, r = COk x /\ k x = COk y.
Proof. destruct r; simpl; intros H; try discriminate H; eauto. Qed.

Tactic Notation "binv" hyp(H) "as" simple_intropattern(p) ident(E) :=
  first [apply rbind_ok in H | apply cbind_ok in H]; destruct H as [p [E H]].

Lemma builtin_table_ok : fenv_ok builtin_fenv = true.
Proof. vm_compute; reflexivity. Qed.

Lemma assoc_sput_same {X} k (x : X) l : assoc k (sput k x l) = Some x.
Proof.
  induction l as [|[k' x'] r IH]; simpl.
  - rewrite String.eqb_refl. reflexivity.
  - destruct (String.eqb_spec k k') as [E|E]; simpl.
    + rewrite String.eqb_refl. reflexivity.
    + destruct (String.eqb_spec k k'); [congruence|exact IH].
Qed.

Lemma register_mono : forall fe sg,
  slot_free (sig_ty sg) = true ->
  assoc (mono_key (s_name sg) (s_params sg)) (f_mono (register fe sg)) = Some sg /\ f_poly (register fe sg) = f_poly fe.
Proof.
  intros fe sg H. unfold register. rewrite H. simpl. split; [apply assoc_sput_same|reflexivity].
Qed.

Lemma register_poly : forall fe sg,
  slot_free (sig_ty sg) = false ->
  exists old, (assoc (poly_key (s_name sg) (List.length (s_params sg))) (f_poly fe) = Some old \/
               (assoc (poly_key (s_name sg) (List.length (s_params sg))) (f_poly fe) = None /\ old = [])) /\
  assoc (poly_key (s_name sg) (List.length (s_params sg))) (f_poly (register fe sg)) = Some (old ++ [sg])%list /\
  f_mono (register fe sg) = f_mono fe.
Proof.
  intros fe sg H. unfold register. rewrite H. simpl.
  destruct (assoc (poly_key (s_name sg) (List.length (s_params sg))) (f_poly fe)) as [old|] eqn:E.
  - exists old. split; [left; reflexivity|]. split; [apply assoc_sput_same|reflexivity].
  - exists []. split; [right; split; reflexivity|]. split; [apply assoc_sput_same|reflexivity].
Qed.

Lemma ty_ok_parts t : ty_ok t = true -> slot_free t = true /\ wf_ty t = true /\ simple t = true.
Proof. unfold ty_ok. intros H. apply andb_true_iff in H. destruct H as [H H3]. apply andb_true_iff in H. tauto. Qed.

Lemma ty_ok_intro t : slot_free t = true -> wf_ty t = true -> simple t = true -> ty_ok t = true.
Proof. unfold ty_ok. intros H1 H2 H3. rewrite H1, H2, H3. reflexivity. Qed.

Lemma ty_ok_mapk k v : keyable k = true -> ty_ok k = true -> ty_ok v = true -> ty_ok (TMap k v) = true.
Proof.
  intros Hp Hk Hv. destruct (ty_ok_parts _ Hk) as [A [B C]]. destruct (ty_ok_parts _ Hv) as [A' [B' C']].
  apply ty_ok_intro; simpl; rewrite ?A, ?A', ?B, ?B', ?C, ?C', ?Hp; reflexivity.
Qed.

Lemma ty_ok_map k v : is_primitive k = true -> ty_ok k = true -> ty_ok v = true -> ty_ok (TMap k v) = true.
Proof. intros Hp. apply ty_ok_mapk. unfold keyable. rewrite Hp. reflexivity. Qed.

Lemma ty_ok_obj fs : nodupb (map fst fs) = true -> Forall (fun f => ty_ok (snd f) = true) fs -> ty_ok (TObj fs) = true.
Proof.
  intros Hnd H. rewrite Forall_forall in H.
  apply ty_ok_intro; simpl; rewrite ?Hnd; apply forallb_forall; intros f Hin; apply (ty_ok_parts _ (H f Hin)).
Qed.

Lemma ty_ok_ground t : ty_ok t = true <-> ground_ty t.
Proof.
  unfold ground_ty. split; [intros H; destruct (ty_ok_parts _ H) as (A & B & C); auto|].
  intros (C & B & A). apply ty_ok_intro; assumption.
Qed.

Lemma ty_ok_map_inv k v : ty_ok (TMap k v) = true -> ty_ok k = true /\ ty_ok v = true.
Proof. rewrite !ty_ok_ground. apply ground_ty_map. Qed.

Lemma ty_ok_obj_inv fs n t : ty_ok (TObj fs) = true -> In (n, t) fs -> ty_ok t = true.
Proof. rewrite !ty_ok_ground. intros H. exact (ground_ty_obj fs H n t). Qed.

Lemma ty_ok_list t : ty_ok t = true -> ty_ok (TList t) = true.
Proof. intros H. exact H. Qed.

Lemma ty_ok_list_inv t : ty_ok (TList t) = true -> ty_ok t = true.
Proof. intros H. exact H. Qed.

Lemma simple_obj_in fs n t : simple (TObj fs) = true -> In (n, t) fs -> simple t = true.
Proof. simpl. intros H Hin. rewrite forallb_forall in H. apply (H _ Hin). Qed.

Lemma ok_refl t : ty_ok t = true -> ty_eqb t t = true.
Proof. intros H. apply eq_refl. destruct (ty_ok_parts _ H) as [_ [B _]]. exact B. Qed.

Lemma ok_sym a b : ty_ok a = true -> ty_ok b = true -> ty_eqb a b = true -> ty_eqb b a = true.
Proof.
  intros Ha Hb. destruct (ty_ok_parts _ Ha) as [_ [A _]]. destruct (ty_ok_parts _ Hb) as [_ [B _]].
  apply eqb_sym_imp; assumption.
Qed.

Lemma tys_ok_wf l : forallb ty_ok l = true -> wf_ty (TTuple l) = true.
Proof.
  intros H. simpl. rewrite forallb_forall in *. intros t Hin. apply (ty_ok_parts _ (H t Hin)).
Qed.

Lemma ok_list_sym l1 l2 : forallb ty_ok l1 = true -> forallb ty_ok l2 = true ->
  eqb_list l1 l2 = true -> eqb_list l2 l1 = true.
Proof. intros H1 H2. exact (eqb_sym_imp (TTuple l1) (TTuple l2) (tys_ok_wf _ H1) (tys_ok_wf _ H2)). Qed.

(* r1 is the fuelled computation, r2 its fuel-free answer, P a "fuel too small" condition.  Soundness needs only the
   dichotomy "the fuel-free answer, or Fuel"; the bounds P are carried so that completeness can name a fuel from which
   on the answer is the fuel-free one ([try_infer_settles]). *)
Definition rf {X} (P : Prop) (r1 r2 : res X) : Prop := r1 = r2 \/ (r1 = Fuel /\ P).

Lemma rf_refl {X} P (r : res X) : rf P r r.
Proof. left; reflexivity. Qed.

Lemma rf_weaken {X} (P Q : Prop) (r1 r2 : res X) : (P -> Q) -> rf P r1 r2 -> rf Q r1 r2.
Proof. intros HPQ [E|[E HP]]; [left; exact E|right; split; auto]. Qed.

Lemma rf_bind {X Y} P (r1 r2 : res X) (k1 k2 : X -> res Y) :
  rf P r1 r2 -> (forall x, r2 = Ok x -> rf P (k1 x) (k2 x)) -> rf P (rbind r1 k1) (rbind r2 k2).
Proof.
  intros [E|[E HP]] Hk.
  - subst r1. destruct r2 as [x| | |]; simpl; try (left; reflexivity). apply Hk; reflexivity.
  - subst r1. right. simpl. split; auto.
Qed.

Lemma rf_bind_ok {X Y} P (r1 : res X) x (k1 : X -> res Y) r2 :
  rf P r1 (Ok x) -> rf P (k1 x) r2 -> rf P (rbind r1 k1) r2.
Proof. intros H1 H2. apply (rf_bind P r1 (Ok x) k1 (fun _ => r2) H1). intros x' [= <-]. exact H2. Qed.

Lemma rf_bind_fail {X Y} P (r1 : res X) (k1 : X -> res Y) : rf P r1 Fail -> rf P (rbind r1 k1) Fail.
Proof. intros H. apply (rf_bind P r1 Fail k1 (fun _ => Fail) H). discriminate. Qed.

Lemma rf_rmap {X Y} P (g : X -> Y) (r1 r2 : res X) : rf P r1 r2 -> rf P (rmap g r1) (rmap g r2).
Proof. intros H. unfold rmap. apply rf_bind; [exact H|]. intros x _. apply rf_refl. Qed.

Lemma rf_rmapM {X Y} P (g1 g2 : X -> res Y) l :
  (forall x, In x l -> rf P (g1 x) (g2 x)) -> rf P (rmapM g1 l) (rmapM g2 l).
Proof.
  induction l as [|a r IH]; intros H; simpl.
  - apply rf_refl.
  - apply rf_bind; [apply H; left; reflexivity|]. intros y _.
    apply rf_bind; [apply IH; intros x Hin; apply H; right; exact Hin|]. intros ys _. apply rf_refl.
Qed.

Lemma rf_not_fuel {X} (P : Prop) (r1 r2 : res X) : rf P r1 r2 -> r1 <> Fuel -> r1 = r2.
Proof. intros [E|[E _]] Hn; [exact E|contradiction]. Qed.

(* [apply_subst] without fuel, where the bindings met are variable-free ([apply_subst_rf]): a binding is not visited
   again.  A map type is rebuilt by [mk_map], which keeps the panic on a key that is not keyable; that separates it
   from [subst_ty] ([asub_subst_ty]). *)
Fixpoint asub (m : subst) (t : ty) : res ty :=
  match t with
  | TVar n => match assoc n m with Some u => Ok u | None => Ok t end
  | TList e => rmap TList (asub m e)
  | TMaybe e => rmap TMaybe (asub m e)
  | TMap k v => let* k' := asub m k in let* v' := asub m v in mk_map k' v'
  | TTuple l => rmap TTuple (rmapM (asub m) l)
  | TObj fs => rmap TObj (rmapM (fun nf => rmap (fun t' => (fst nf, t')) (asub m (snd nf))) fs)
  | TFun n ps r => let* ps' := rmapM (asub m) ps in let* r' := asub m r in Ok (TFun n ps' r')
  | _ => Ok t
  end.

Lemma slot_free_vars : forall t, slot_free t = true -> vars_of t = [].
Proof.
  induction t using ty_ind'; intros Hs; simpl in Hs; try discriminate Hs; try reflexivity.
  - exact (flat_map_nil _ slot_free l H Hs).
  - simpl. auto.
  - apply andb_true_iff in Hs. destruct Hs. simpl. rewrite IHt1, IHt2 by assumption. reflexivity.
  - exact (flat_map_nil _ (fun f => slot_free (snd f)) fs H Hs).
  - apply andb_true_iff in Hs. destruct Hs as [Hs1 Hs2]. simpl. rewrite IHt by assumption.
    rewrite app_nil_r. exact (flat_map_nil _ slot_free ps H Hs1).
  - simpl. auto.
Qed.

Lemma not_in_vars_not_named p n : ~ In n (vars_of p) -> is_var_named p n = false.
Proof.
  destruct p; simpl; intros H; try reflexivity.
  destruct (String.eqb_spec n0 n); [exfalso; apply H; left; assumption|reflexivity].
Qed.

Lemma is_var_named_ground u n : slot_free u = true -> is_var_named u n = false.
Proof. intros H. apply not_in_vars_not_named. rewrite (slot_free_vars _ H). intros []. Qed.

Definition part (t' t : ty) : Prop :=
  match t with
  | TList e | TMaybe e => t' = e
  | TMap k v => t' = k \/ t' = v
  | TTuple l => In t' l
  | TObj fs => exists n, In (n, t') fs
  | TFun _ ps r => In t' ps \/ t' = r
  | _ => False
  end.

Lemma part_vars t' t n : part t' t -> In n (vars_of t') -> In n (vars_of t).
Proof.
  destruct t; simpl; intros Hp Hn; try contradiction.
  - apply in_flat_map. eauto.
  - subst. exact Hn.
  - apply in_or_app. destruct Hp; subst; auto.
  - destruct Hp as [k Hin]. apply in_flat_map. exists (k, t'). auto.
  - apply in_or_app. destruct Hp as [Hin| ->]; [left; apply in_flat_map; eauto|auto].
  - subst. exact Hn.
Qed.

Lemma part_size t' t : part t' t -> ty_size t' < ty_size t.
Proof.
  destruct t; simpl; intros Hp; try contradiction.
  - apply size_in_list in Hp. lia.
  - subst. lia.
  - destruct Hp; subst; lia.
  - destruct Hp as [k Hin]. apply size_in_fields in Hin. simpl in Hin. lia.
  - destruct Hp as [Hin| ->]; [apply size_in_list in Hin|]; lia.
  - subst. lia.
Qed.

Lemma asub_unbound : forall m t, (forall n, In n (vars_of t) -> assoc n m = None) -> wf_ty t = true -> asub m t = Ok t.
Proof.
  intros m. induction t using ty_ind'; intros Hv Hw; try reflexivity.
  - simpl. rewrite (Hv n) by (left; reflexivity). reflexivity.
  - simpl. rewrite rmapM_ok_id; [reflexivity|]. intros x Hin.
    rewrite Forall_forall in H. apply H; [exact Hin| |].
    + intros n Hn. apply Hv. simpl. apply in_flat_map. eauto.
    + apply wf_tuple in Hw. rewrite Forall_forall in Hw. auto.
  - simpl in *. rewrite IHt by assumption. reflexivity.
  - apply wf_map in Hw. destruct Hw as [Hk [Hw1 Hw2]]. simpl in *.
    rewrite IHt1, IHt2; try assumption; try (intros n Hn; apply Hv; apply in_or_app; tauto).
    simpl. unfold mk_map. rewrite Hk. reflexivity.
  - apply wf_obj in Hw. destruct Hw as [_ Hw]. simpl. rewrite rmapM_ok_id; [reflexivity|].
    intros [n t] Hin. simpl. rewrite Forall_forall in H. specialize (H (n, t) Hin). simpl in H.
    rewrite H; [reflexivity| |eauto].
    intros v Hv'. apply Hv. exact (part_vars t (TObj fs) v (ex_intro _ n Hin) Hv').
  - apply wf_fun in Hw. destruct Hw as [Hw1 Hw2]. simpl in *. rewrite rmapM_ok_id.
    + simpl. rewrite IHt; [reflexivity| |assumption]. intros v Hv'. apply Hv. apply in_or_app. tauto.
    + intros x Hin. rewrite Forall_forall in H. apply H; [exact Hin| |].
      * intros v Hv'. apply Hv. apply in_or_app. left. apply in_flat_map. eauto.
      * rewrite Forall_forall in Hw1. auto.
  - simpl in *. rewrite IHt by assumption. reflexivity.
Qed.

Lemma asub_ground m t : slot_free t = true -> wf_ty t = true -> asub m t = Ok t.
Proof.
  intros Hs Hw. apply asub_unbound; [|exact Hw]. rewrite (slot_free_vars _ Hs). intros n [].
Qed.

Lemma apply_subst_rf : forall fa m t B,
  (forall n u, In n (vars_of t) -> assoc n m = Some u -> slot_free u = true /\ wf_ty u = true /\ ty_size u <= B) ->
  rf (fa < ty_size t + B) (apply_subst fa m t) (asub m t).
Proof.
  induction fa as [|fa IH]; intros m t B Hb.
  { right. split; [reflexivity|]. pose proof (ty_size_pos t). lia. }
  assert (forall t', part t' t -> rf (S fa < ty_size t + B) (apply_subst fa m t') (asub m t')) as Hpart.
  { intros t' Hp. eapply rf_weaken; [|apply (IH m t' B)].
    - pose proof (part_size _ _ Hp). lia.
    - intros n u Hn. apply Hb. exact (part_vars _ _ _ Hp Hn). }
  destruct t; try (left; reflexivity); simpl.
  - (* var: the binding is variable-free, so the second pass over it changes nothing *)
    destruct (assoc n m) as [u|] eqn:Ea; [|left; reflexivity].
    destruct (Hb n u (or_introl Logic.eq_refl) Ea) as [Hs [Hw Hsz]].
    rewrite (is_var_named_ground _ _ Hs), <- (asub_ground m u Hs Hw).
    eapply rf_weaken; [|apply (IH m u 0)]; [lia|].
    rewrite (slot_free_vars _ Hs). intros n0 u0 [].
  - (* tuple *) apply rf_rmap, rf_rmapM. intros x Hin. apply Hpart. exact Hin.
  - (* list *) apply rf_rmap, Hpart. reflexivity.
  - (* map *)
    apply rf_bind; [apply Hpart; left; reflexivity|]. intros k' _.
    apply rf_bind; [apply Hpart; right; reflexivity|intros; apply rf_refl].
  - (* obj *)
    apply rf_rmap, rf_rmapM. intros [n t] Hin. apply rf_rmap, Hpart. exists n. exact Hin.
  - (* fun *)
    apply rf_bind; [apply rf_rmapM; intros x Hin; apply Hpart; left; exact Hin|]. intros ps' _.
    apply rf_bind; [apply Hpart; right; reflexivity|intros; apply rf_refl].
  - (* maybe *) apply rf_rmap, Hpart. reflexivity.
Qed.

Lemma occurs_vars n : forall t, occurs n t = true <-> In n (vars_of t).
Proof.
  induction t using ty_ind'; simpl; try (split; [discriminate|contradiction]).
  - rewrite String.eqb_eq. split; [intros ->; left; reflexivity|intros [E|[]]; auto].
  - apply existsb_flat_map. exact H.
  - exact IHt.
  - rewrite orb_true_iff, in_app_iff, IHt1, IHt2. reflexivity.
  - apply existsb_flat_map. exact H.
  - rewrite orb_true_iff, in_app_iff, IHt. apply or_iff_compat_r, existsb_flat_map. exact H.
  - exact IHt.
Qed.

Lemma free_from_absent t n : simple t = true -> ~ In n (vars_of t) -> free_from t n = Ok true.
Proof.
  intros Hs Hv. rewrite (free_from_spec t n Hs). destruct (occurs n t) eqn:E; [|reflexivity].
  exfalso. apply Hv, occurs_vars. exact E.
Qed.

Lemma apply_subst_unbound_rf fa m t :
  (forall n, In n (vars_of t) -> assoc n m = None) -> wf_ty t = true ->
  rf (fa < ty_size t) (apply_subst fa m t) (Ok t).
Proof.
  intros Hv Hw. rewrite <- (asub_unbound m t Hv Hw).
  eapply rf_weaken; [|apply (apply_subst_rf fa m t 0)]; [lia|].
  intros n u Hn Hu. rewrite (Hv n Hn) in Hu. discriminate Hu.
Qed.

(* C17Proofs proves [unify] sound and complete for [inst] in a substitution all of whose bindings are variable-free
   ([ground_wf]); inferFun matches in a substitution that binds the generated names to the parameter types, variables
   included, so those theorems do not apply. *)
Fixpoint mtch (x y : ty) (m : subst) {struct x} : res (ty * subst) :=
  match x with
  | TVar n =>
      match assoc n m with
      | Some k => if ty_eqb k y then Ok (y, update n y m) else Fail
      | None => Ok (y, update n y m)
      end
  | TTop => Ok (x, m)
  | TBot => match y with TBot => Ok (x, m) | _ => Fail end
  | TNum => match y with TNum | TBot => Ok (x, m) | _ => Fail end
  | TStr => match y with TStr | TBot => Ok (x, m) | _ => Fail end
  | TBool => match y with TBool | TBot => Ok (x, m) | _ => Fail end
  | TTime => match y with TTime | TBot => Ok (x, m) | _ => Fail end
  | TList a =>
      match y with
      | TList b => let* (e, m1) := mtch a b m in Ok (TList e, m1)
      | TBot => Ok (x, m)
      | _ => Fail
      end
  | TMaybe a =>
      match y with
      | TMaybe b => let* (e, m1) := mtch a b m in Ok (TMaybe e, m1)
      | TBot => Ok (x, m)
      | _ => Fail
      end
  | TMap k1 v1 =>
      match y with
      | TMap k2 v2 =>
          let* (k, m1) := mtch k1 k2 m in
          let* (v, m2) := mtch v1 v2 m1 in
          let* t := mk_map k v in Ok (t, m2)
      | TBot => Ok (x, m)
      | _ => Fail
      end
  | TObj f1 =>
      match y with
      | TObj f2 =>
          if negb (Nat.eqb (List.length f1) (List.length f2)) then Fail else
          let* (fs, m1) :=
            (fix go (f1 : list (string * ty)) (m : subst) : res (list (string * ty) * subst) :=
               match f1 with
               | [] => Ok ([], m)
               | (n, a) :: r1 =>
                   match assoc n f2 with
                   | None => Fail
                   | Some b =>
                       let* (u, m1) := mtch a b m in
                       let* (us, m2) := go r1 m1 in Ok ((n, u) :: us, m2)
                   end
               end) f1 m in
          Ok (TObj fs, m1)
      | TBot => Ok (x, m)
      | _ => Fail
      end
  | TTuple _ | TFun _ _ _ => Fail
  end.

(* the loop over the fields nested in [mtch], as a function of its own ([mtch_obj]) *)
Definition mtch_fields (f2 : list (string * ty)) :=
  fix go (f1 : list (string * ty)) (m : subst) : res (list (string * ty) * subst) :=
    match f1 with
    | [] => Ok ([], m)
    | (n, a) :: r1 =>
        match assoc n f2 with
        | None => Fail
        | Some b =>
            let* (u, m1) := mtch a b m in
            let* (us, m2) := go r1 m1 in Ok ((n, u) :: us, m2)
        end
    end.

Fixpoint mtch_list (l1 l2 : list ty) (m : subst) : res (list ty * subst) :=
  match l1, l2 with
  | a :: r1, b :: r2 =>
      let* (u, m1) := mtch a b m in
      let* (us, m2) := mtch_list r1 r2 m1 in Ok (u :: us, m2)
  | _, _ => Ok ([], m)
  end.

Lemma mtch_obj f1 f2 m :
  mtch (TObj f1) (TObj f2) m =
  if negb (Nat.eqb (List.length f1) (List.length f2)) then Fail else
  let* (fs, m1) := mtch_fields f2 f1 m in Ok (TObj fs, m1).
Proof. reflexivity. Qed.

Lemma mtch_nonvar_bot x m : is_var x = false -> simple x = true -> mtch x TBot m = Ok (x, m).
Proof. destruct x; intros H1 H2; try discriminate H1; try discriminate H2; reflexivity. Qed.

Lemma bind_var_rf fa n y m :
  (forall v, In v (vars_of y) -> assoc v m = None) -> ~ In n (vars_of y) -> simple y = true -> wf_ty y = true ->
  rf (fa < ty_size y) (bind_var fa n y m) (mtch (TVar n) y m).
Proof.
  intros Hv Hn Hs Hw. unfold bind_var.
  replace (mtch (TVar n) y m) with
    (let* y1 := Ok y in let* free := free_from y1 n in
     if free then match assoc n m with
                  | Some k => if ty_eqb k y1 then Ok (y1, update n y1 m) else Fail
                  | None => Ok (y1, update n y1 m) end else Fail).
  2:{ simpl. rewrite free_from_absent by assumption. reflexivity. }
  apply rf_bind; [apply apply_subst_unbound_rf; assumption|]. intros y1 _. apply rf_refl.
Qed.

Lemma unify_fields_rf fa f f2 P f1 :
  Forall (fun nf => forall b m, In (fst nf, b) f2 -> rf P (unify fa f (snd nf) b m) (mtch (snd nf) b m)) f1 ->
  forall m, rf P (unify_fields fa f f2 f1 m) (mtch_fields f2 f1 m).
Proof.
  induction 1 as [|[n a] r1 Ha Hr IH]; intros m; simpl.
  - apply rf_refl.
  - destruct (assoc n f2) as [b|] eqn:Eb; [|apply rf_refl].
    apply rf_bind; [exact (Ha b m (assoc_In _ _ _ Eb))|]. intros [u m1] _.
    apply rf_bind; [apply IH|]. intros [us m2] _. apply rf_refl.
Qed.

Lemma unify_rf fa : forall x f y m,
  simple x = true -> ty_ok y = true ->
  rf (fa < ty_size y \/ f < ty_size x) (unify fa f x y m) (mtch x y m).
Proof.
  induction x using ty_ind'; intros f y m Hsx Hy; try discriminate Hsx;
    (destruct f as [|f]; [right; split; [reflexivity|right; simpl; lia]|]);
    pose proof (slot_free_not_var _ (proj1 (ty_ok_parts _ Hy))) as Hnv.
  (* top, bottom and the four primitive types: both sides only look at the head of y, which is not a variable *)
  all: try solve [destruct y; try discriminate Hnv; apply rf_refl].
  - (* var *) destruct (ty_ok_parts _ Hy) as [Hfy [Hwy Hsy]].
    rewrite unify_var by assumption. eapply rf_weaken; [|apply bind_var_rf; try assumption].
    + tauto.
    + rewrite (slot_free_vars _ Hfy). intros v [].
    + rewrite (slot_free_vars _ Hfy). intros [].
  - (* list *)
    destruct y; try discriminate Hnv; try apply rf_refl.
    rewrite unify_tlist. simpl mtch. apply rf_bind; [|intros [e m1] _; apply rf_refl].
    eapply rf_weaken; [|exact (IHx f y m Hsx Hy)]. simpl; lia.
  - (* map *)
    destruct y; try discriminate Hnv; try apply rf_refl.
    rewrite unify_tmap. simpl mtch. destruct (ty_ok_map_inv _ _ Hy) as [Hy1 Hy2].
    simpl in Hsx. apply andb_true_iff in Hsx. destruct Hsx as [Hsx1 Hsx2].
    apply rf_bind.
    { eapply rf_weaken; [|apply IHx1; assumption]. simpl; lia. }
    intros [k m1] _. apply rf_bind; [|intros [v m2] _; apply rf_refl].
    eapply rf_weaken; [|apply IHx2; assumption]. simpl; lia.
  - (* obj *)
    destruct y; try discriminate Hnv; try apply rf_refl.
    rewrite unify_obj, mtch_obj.
    destruct (negb (Nat.eqb (List.length fs) (List.length fs0))); [apply rf_refl|].
    apply rf_bind; [|intros [us m1] _; apply rf_refl].
    apply unify_fields_rf. simpl in Hsx. rewrite forallb_forall in Hsx. rewrite Forall_forall in H |- *.
    intros [n a] Hin b m' Hinb. simpl.
    eapply rf_weaken; [|apply (H (n, a) Hin); [exact (Hsx _ Hin)|exact (ty_ok_obj_inv _ _ _ Hy Hinb)]].
    pose proof (size_in_fields _ _ Hin). pose proof (size_in_fields _ _ Hinb). simpl in *. lia.
  - (* maybe *)
    destruct y; try discriminate Hnv; try apply rf_refl.
    rewrite unify_tmaybe. simpl mtch. apply rf_bind; [|intros [e m1] _; apply rf_refl].
    eapply rf_weaken; [|exact (IHx f y m Hsx Hy)]. simpl; lia.
Qed.

(* [extends] of TySpec asks for type equality only; that is reflexive only where every binding is well formed, which
   is known of the bindings of pattern variables ([bound_ok]) and not of the others. *)
Definition carries (m m' : subst) : Prop :=
  forall n u, assoc n m = Some u -> exists u', assoc n m' = Some u' /\ (u' = u \/ ty_eqb u u' = true).

Lemma carries_refl m : carries m m.
Proof. intros n u H. eauto. Qed.

Lemma carries_trans a b c : carries a b -> carries b c -> carries a c.
Proof.
  intros H1 H2 n u Ha. destruct (H1 n u Ha) as [u1 [Hb E1]]. destruct (H2 n u1 Hb) as [u2 [Hc E2]].
  exists u2. split; [exact Hc|].
  destruct E1 as [E1|E1]; destruct E2 as [E2|E2]; subst; auto.
  right. eapply eqb_trans; eauto.
Qed.

Lemma carries_bound m m' n : carries m m' -> (exists u, assoc n m = Some u) -> exists u, assoc n m' = Some u.
Proof. intros He [u Hu]. destruct (He n u Hu) as [u' [H _]]. eauto. Qed.

Lemma subst_ty_eqb_cong : forall a m1 m2,
  simple a = true -> wf_ty a = true ->
  (forall n, In n (vars_of a) -> exists u1 u2, assoc n m1 = Some u1 /\ assoc n m2 = Some u2 /\ ty_eqb u2 u1 = true) ->
  ty_eqb (subst_ty m2 a) (subst_ty m1 a) = true.
Proof.
  induction a using ty_ind'; intros m1 m2 Hs Hw Hv; try reflexivity; try discriminate Hs.
  - destruct (Hv n (or_introl Logic.eq_refl)) as [u1 [u2 [H1 [H2 E]]]]. simpl. rewrite H1, H2. exact E.
  - simpl in *. auto.
  - apply wf_map in Hw. destruct Hw as [_ [Hw1 Hw2]]. simpl in Hs. apply andb_true_iff in Hs. destruct Hs.
    simpl. rewrite IHa1, IHa2; try assumption; try reflexivity;
      intros n Hn; apply Hv; simpl; apply in_or_app; tauto.
  - pose proof Hw as Hw'. apply wf_obj in Hw. destruct Hw as [Hnd Hw].
    simpl subst_ty. apply ty_eqb_obj_spec. split; [rewrite !map_length; reflexivity|].
    intros n t' Hin. apply in_map_iff in Hin. destruct Hin as [[n0 t] [E Hin]]. simpl in E. inversion E; subst n0 t'.
    exists (subst_ty m1 t). split.
    + apply In_assoc; [rewrite map_fst_keyed; exact Hnd|].
      apply in_map_iff. exists (n, t). split; [reflexivity|exact Hin].
    + rewrite Forall_forall in H. apply (H (n, t) Hin); simpl.
      * eapply simple_obj_in; eauto.
      * eauto.
      * intros v Hv'. apply Hv. exact (part_vars t (TObj fs) v (ex_intro _ n Hin) Hv').
  - simpl in *. auto.
Qed.

Lemma subst_ty_eq_cong : forall t s s', simple t = true ->
  (forall v, In v (vars_of t) -> assoc v s = assoc v s') -> subst_ty s t = subst_ty s' t.
Proof.
  induction t using ty_ind'; intros s s' Hs Hv; try reflexivity; try discriminate Hs.
  - simpl. rewrite (Hv n (or_introl Logic.eq_refl)). reflexivity.
  - simpl in *. f_equal. auto.
  - simpl in Hs |- *. apply andb_true_iff in Hs. destruct Hs as [S1 S2].
    rewrite (IHt1 s s' S1), (IHt2 s s' S2); [reflexivity| |]; intros v Hin; apply Hv; simpl; apply in_or_app; tauto.
  - simpl. f_equal. apply map_ext_in. intros [n t] Hin. simpl. f_equal.
    rewrite Forall_forall in H. apply (H (n, t) Hin).
    + eapply simple_obj_in; eauto.
    + intros v Hv'. apply Hv. exact (part_vars t (TObj fs) v (ex_intro _ n Hin) Hv').
  - simpl in *. f_equal. auto.
Qed.

Lemma mtch_keyable x y m r m' : mtch x y m = Ok (r, m') -> keyable x = true -> keyable y = true -> keyable r = true.
Proof.
  destruct x; intros H Kx Ky; try discriminate Kx; simpl in H; try (destruct y; inversion H; reflexivity).
  destruct (assoc n m) as [k|]; [destruct (ty_eqb k y)|]; inversion H; subst; exact Ky.
Qed.

(* the map constructor never panics on well-formed map types *)
Lemma mtch_map_eq k1 v1 k2 v2 m : keyable k1 = true -> keyable k2 = true ->
  mtch (TMap k1 v1) (TMap k2 v2) m =
  let* (k, m1) := mtch k1 k2 m in let* (v, m2) := mtch v1 v2 m1 in Ok (TMap k v, m2).
Proof.
  intros K1 K2. simpl. destruct (mtch k1 k2 m) as [[k m1]| | |] eqn:E; try reflexivity. simpl.
  destruct (mtch v1 v2 m1) as [[v m2]| | |]; try reflexivity. simpl.
  unfold mk_map. rewrite (mtch_keyable _ _ _ _ _ E K1 K2). reflexivity.
Qed.

Lemma mtch_fields_length f2 : forall f1 m us m', mtch_fields f2 f1 m = Ok (us, m') -> List.length us = List.length f1.
Proof.
  induction f1 as [|[n a] r IH]; intros m us m' H; simpl in H; [inversion H; reflexivity|].
  destruct (assoc n f2); [|discriminate H]. binv H as [u m1] E1. binv H as [us' m2] E2. inversion H; subst.
  simpl. f_equal. eapply IH; eauto.
Qed.

(* W is the set of pattern variables. *)
Section MatchSpec.
  Variable W : string -> Prop.
  Definition bound_ok (m : subst) : Prop := forall n, W n -> forall u, assoc n m = Some u -> ty_ok u = true.

  Lemma subst_lift a b m1 m2 :
    simple a = true -> wf_ty a = true ->
    (forall n, In n (vars_of a) -> W n) ->
    (forall n, In n (vars_of a) -> exists u, assoc n m1 = Some u) ->
    bound_ok m1 -> bound_ok m2 -> carries m1 m2 ->
    ty_eqb (subst_ty m1 a) b = true -> ty_eqb (subst_ty m2 a) b = true.
  Proof.
    intros Hs Hw HW Hb Hg1 Hg2 He Hab.
    eapply eqb_trans; [|exact Hab]. apply subst_ty_eqb_cong; try assumption.
    intros n Hn. destruct (Hb n Hn) as [u1 Hu1]. destruct (He n u1 Hu1) as [u2 [Hu2 E]].
    exists u1, u2. repeat split; try assumption.
    pose proof (Hg1 n (HW n Hn) u1 Hu1) as K1. pose proof (Hg2 n (HW n Hn) u2 Hu2) as K2.
    destruct E as [->|E]; [exact (ok_refl _ K1)|exact (ok_sym _ _ K1 K2 E)].
  Qed.

  (* what a run from m over the variables vs leaves in m': nothing changed outside vs, the bindings of pattern variables
     checked, the old bindings carried *)
  Definition spost (m : subst) (vs : list string) (m' : subst) : Prop :=
    (forall n, ~ In n vs -> assoc n m' = assoc n m) /\ bound_ok m' /\ carries m m'.

  Definition compat (s m : subst) : Prop :=
    forall n u u', assoc n m = Some u -> assoc n s = Some u' -> ty_eqb u u' = true.

  (* [same r]: the result equals the target; [fits s]: s instantiates the pattern to the target.  A successful run has
     three clauses, in this order: [spost]; soundness, if the result equals the target then m' binds every variable of vs
     and fits; completeness, a well-formed s that fits and is compatible with m is compatible with m', and then the result
     equals the target.  A failed run says that there is no such s. *)
  Definition mpost {R} (vs : list string) (same : R -> bool) (fits : subst -> bool) (m : subst) (o : res (R * subst)) : Prop :=
    match o with
    | Ok (r, m') =>
        spost m vs m' /\
        (same r = true -> (forall n, In n vs -> exists u, assoc n m' = Some u) /\ fits m' = true) /\
        (forall s, subst_wf s = true -> compat s m -> fits s = true -> compat s m' /\ same r = true)
    | Fail => forall s, subst_wf s = true -> compat s m -> fits s = true -> False
    | _ => False
    end.

  Definition mspec (x : ty) : Prop :=
    forall y m, simple x = true -> wf_ty x = true -> ty_ok y = true -> (forall n, In n (vars_of x) -> W n) -> bound_ok m ->
      mpost (vars_of x) (fun r => ty_eqb r y) (fun s => ty_eqb (subst_ty s x) y) m (mtch x y m).

  Lemma spost_refl m vs : bound_ok m -> spost m vs m.
  Proof. intros H. repeat split; auto using carries_refl. Qed.

  Lemma mpost_keep {R} vs (same : R -> bool) fits m r :
    bound_ok m -> (forall s, fits s = same r) -> (same r = true -> vs = []) -> mpost vs same fits m (Ok (r, m)).
  Proof.
    intros Hg E Hvs. split; [apply spost_refl; exact Hg|split].
    - intros H. rewrite (Hvs H), (E m). split; [intros ? []|exact H].
    - intros s _ Hc H. rewrite <- (E s). auto.
  Qed.

  Lemma mpost_wrap {R R'} vs (same : R -> bool) (same' : R' -> bool) fits fits' m o (g : R -> R') :
    mpost vs same fits m o ->
    (forall r m', o = Ok (r, m') -> same' (g r) = same r) -> (forall s, fits' s = fits s) ->
    mpost vs same' fits' m (let* (r, m') := o in Ok (g r, m')).
  Proof.
    intros H Es Ei. destruct o as [[r m']| | |]; simpl; try exact H.
    - rewrite (Es r m' Logic.eq_refl), Ei. destruct H as (S & Q & C). split; [exact S|split; [exact Q|]].
      intros s. rewrite Ei. apply C.
    - intros s. rewrite Ei. apply H.
  Qed.

  Lemma bound_ok_update n y m : ty_ok y = true -> bound_ok m -> bound_ok (update n y m).
  Proof.
    intros Hy Hg v Hv u Hu. destruct (String.eqb_spec v n) as [E|E].
    - subst v. rewrite assoc_update_same in Hu. inversion Hu; subst. exact Hy.
    - rewrite assoc_update_other in Hu by assumption. eapply Hg; eauto.
  Qed.

  Lemma carries_update n y m : (forall k, assoc n m = Some k -> ty_eqb k y = true) -> carries m (update n y m).
  Proof.
    intros Hk v u Hu. destruct (String.eqb_spec v n) as [E|E].
    - subst v. exists y. rewrite assoc_update_same. split; [reflexivity|]. right. auto.
    - exists u. rewrite assoc_update_other by assumption. auto.
  Qed.

  Lemma spost_seq m m1 m' vs1 vs2 : spost m vs1 m1 -> spost m1 vs2 m' -> spost m (vs1 ++ vs2) m'.
  Proof.
    intros [P1 [G1 X1]] [P2 [G2 X2]]. repeat split; [|exact G2|eapply carries_trans; eauto].
    intros n Hn. rewrite P2, P1; [reflexivity| |]; intros Hin; apply Hn; apply in_or_app; tauto.
  Qed.

  (* one match, then whatever k does with the substitution it leaves: the map, field-list and list cases *)
  Lemma mpost_seq {R R'} x y m vs2 (same2 : R -> bool) fits2 (k : subst -> res (R * subst)) (mk : ty -> R -> R')
        (same' : R' -> bool) fits' :
    simple x = true -> wf_ty x = true -> (forall n, In n (vars_of x) -> W n) ->
    mpost (vars_of x) (fun r => ty_eqb r y) (fun s => ty_eqb (subst_ty s x) y) m (mtch x y m) ->
    (forall m1, bound_ok m1 -> mpost vs2 same2 fits2 m1 (k m1)) ->
    (forall u us, same' (mk u us) = ty_eqb u y && same2 us) ->
    (forall s, fits' s = ty_eqb (subst_ty s x) y && fits2 s) ->
    mpost (vars_of x ++ vs2) same' fits' m (let* (u, m1) := mtch x y m in let* (us, m2) := k m1 in Ok (mk u us, m2)).
  Proof.
    intros Hs Hw HW H1 H2 Esame Efits.
    destruct (mtch x y m) as [[u m1]| | |]; simpl; try exact H1.
    2:{ intros s Hws Hc HE. rewrite Efits in HE. apply andb_true_iff in HE. exact (H1 s Hws Hc (proj1 HE)). }
    destruct H1 as (S1 & Q1 & C1). specialize (H2 m1 (proj1 (proj2 S1))).
    destruct (k m1) as [[us m2]| | |]; simpl; try exact H2.
    2:{ intros s Hws Hc HE. rewrite Efits in HE. apply andb_true_iff in HE.
        exact (H2 s Hws (proj1 (C1 s Hws Hc (proj1 HE))) (proj2 HE)). }
    destruct H2 as (S2 & Q2 & C2). split; [exact (spost_seq _ _ _ _ _ S1 S2)|split].
    - intros HE. rewrite Esame in HE. apply andb_true_iff in HE. destruct (Q1 (proj1 HE)) as [B1 T1].
      destruct (Q2 (proj2 HE)) as [B2 T2]. destruct S1 as [_ [G1 _]]. destruct S2 as [_ [G2 X2]]. split.
      + intros n Hn. apply in_app_or in Hn. destruct Hn as [Hn|Hn]; [eapply carries_bound; eauto|auto].
      + rewrite Efits, T2, (subst_lift x y m1 m2); auto.
    - intros s Hws Hc HE. rewrite Efits in HE. apply andb_true_iff in HE.
      destruct (C1 s Hws Hc (proj1 HE)) as [Hc1 T1]. destruct (C2 s Hws Hc1 (proj2 HE)) as [Hc2 T2].
      split; [exact Hc2|]. rewrite Esame, T1, T2. reflexivity.
  Qed.

  Lemma mtch_fields_spec f2 :
    (forall n b, In (n, b) f2 -> ty_ok b = true) ->
    forall f1, Forall (fun nf => mspec (snd nf)) f1 ->
    (forall n a, In (n, a) f1 -> simple a = true /\ wf_ty a = true /\ forall v, In v (vars_of a) -> W v) ->
    forall m, bound_ok m ->
    mpost (flat_map (fun f => vars_of (snd f)) f1) (eqb_fields f2)
          (fun s => eqb_fields f2 (map (fun f => (fst f, subst_ty s (snd f))) f1)) m (mtch_fields f2 f1 m).
  Proof.
    intros Hf2. induction 1 as [|[n a] r1 Ha Hr IH]; intros Hf1 m Hg.
    - apply mpost_keep; auto.
    - cbn [mtch_fields]. destruct (assoc n f2) as [b|] eqn:Eb.
      2:{ intros s _ _ HE. simpl in HE. rewrite Eb in HE. discriminate HE. }
      destruct (Hf1 n a (or_introl Logic.eq_refl)) as (Hsa & Hwa & HWa).
      apply (mpost_seq a b m _ (eqb_fields f2) (fun s => eqb_fields f2 (map (fun f => (fst f, subst_ty s (snd f))) r1))
                       (mtch_fields f2 r1) (fun u us => (n, u) :: us)); try assumption.
      + exact (Ha b m Hsa Hwa (Hf2 n b (assoc_In _ _ _ Eb)) HWa Hg).
      + intros m1 G1. apply IH; [|exact G1]. intros n' a' Hin. apply (Hf1 n' a'). right. exact Hin.
      + intros u us. simpl. rewrite Eb. reflexivity.
      + intros s. simpl. rewrite Eb. reflexivity.
  Qed.

  Lemma mtch_spec : forall x, mspec x.
  Proof.
    induction x using ty_ind'; intros y m Hsx Hwx Hy HW Hg; try discriminate Hsx.
    (* top, bottom and the four primitive types: a head that fits returns the pattern, any other fails *)
    all: try solve [destruct y; cbn [mtch]; try (intros s _ _ HE; discriminate HE);
                    (apply mpost_keep; [exact Hg|reflexivity|intros _; reflexivity])].
    (* list and maybe: the element decides; against bottom the pattern is kept *)
    all: try solve [destruct y; cbn [mtch]; try (intros s _ _ HE; discriminate HE);
                    [apply mpost_keep; [exact Hg|reflexivity|discriminate]|];
                    specialize (IHx y m Hsx Hwx Hy HW Hg); destruct (mtch x y m) as [[e m1]| | |]; exact IHx].
    - (* var *)
      destruct (ty_ok_parts _ Hy) as [Hy1 [Hy2 Hy3]].
      assert (forall s, ty_eqb (subst_ty s (TVar n)) y = true -> exists t, assoc n s = Some t /\ ty_eqb t y = true) as Hinst.
      { intros s HE. simpl in HE. destruct (assoc n s) as [t|]; [eauto|].
        destruct y; simpl in HE; try discriminate HE. discriminate Hy1. }
      assert ((forall k, assoc n m = Some k -> ty_eqb k y = true) ->
              mpost [n] (fun r => ty_eqb r y) (fun s => ty_eqb (subst_ty s (TVar n)) y) m (Ok (y, update n y m))) as Hok.
      { intros Hk. split; [|split].
        - repeat split; [|apply bound_ok_update; assumption|apply carries_update; assumption].
          intros v Hv. apply assoc_update_other. intros E. apply Hv. left. auto.
        - intros _. split; [intros v [E|[]]; subst v; exists y; apply assoc_update_same|].
          simpl. rewrite assoc_update_same. apply eq_refl. exact Hy2.
        - intros s Hws Hc HE. destruct (Hinst s HE) as (t & Ea & Et). split; [|apply eq_refl; exact Hy2].
          intros v u u' Hu Hu'. destruct (String.eqb_spec v n) as [E|E].
          + subst v. rewrite assoc_update_same in Hu. inversion Hu; subst u. rewrite Ea in Hu'. inversion Hu'; subst u'.
            apply eqb_sym_imp; [eapply wf_assoc; eauto|exact Hy2|exact Et].
          + rewrite assoc_update_other in Hu by assumption. eapply Hc; eauto. }
      cbn [mtch]. destruct (assoc n m) as [k|] eqn:Ek; [destruct (ty_eqb k y) eqn:Eky|].
      + apply Hok. intros k' [= <-]. exact Eky.
      + intros s Hws Hc HE. destruct (Hinst s HE) as (t & Ea & Et).
        rewrite (eqb_trans k t y (Hc n k t Ek Ea) Et) in Eky. discriminate Eky.
      + apply Hok. intros k' Hk'. discriminate Hk'.
    - (* map *)
      destruct y; try (intros s _ _ HE; discriminate HE);
        [apply mpost_keep; [exact Hg|reflexivity|discriminate]|].
      destruct (ty_ok_map_inv _ _ Hy) as [Hy1 Hy2]. destruct (ty_ok_parts _ Hy) as [_ [Hwy _]].
      simpl in Hsx. apply andb_true_iff in Hsx. destruct Hsx as [S1 S2].
      apply wf_map in Hwy. apply wf_map in Hwx. destruct Hwy as [Ky _]. destruct Hwx as [Kx [W1 W2]].
      assert (forall n, In n (vars_of x1) -> W n) as HW1 by (intros n Hn; apply HW; simpl; apply in_or_app; tauto).
      assert (forall n, In n (vars_of x2) -> W n) as HW2 by (intros n Hn; apply HW; simpl; apply in_or_app; tauto).
      rewrite (mtch_map_eq _ _ _ _ _ Kx Ky).
      apply (mpost_seq x1 y1 m _ (fun r => ty_eqb r y2) (fun s => ty_eqb (subst_ty s x2) y2) (mtch x2 y2) TMap);
        auto; reflexivity.
    - (* obj *)
      destruct y; try (intros s _ _ HE; discriminate HE);
        [apply mpost_keep; [exact Hg|reflexivity|discriminate]|].
      rewrite mtch_obj.
      destruct (Nat.eqb (List.length fs) (List.length fs0)) eqn:El; simpl negb; cbv iota.
      2:{ intros s _ _ HE. simpl subst_ty in HE. rewrite ty_eqb_obj, map_length, El in HE. discriminate HE. }
      pose proof Hwx as Hwx'. apply wf_obj in Hwx'. destruct Hwx' as [_ Hwf].
      apply (mpost_wrap _ (eqb_fields fs0) _ (fun s => eqb_fields fs0 (map (fun f => (fst f, subst_ty s (snd f))) fs))).
      + apply mtch_fields_spec; try assumption.
        * intros n b. apply ty_ok_obj_inv. exact Hy.
        * intros n a Hin. repeat split; [eapply simple_obj_in; eauto|eauto|].
          intros v Hv. apply HW. exact (part_vars a (TObj fs) v (ex_intro _ n Hin) Hv).
      + intros us m1 E1. rewrite ty_eqb_obj, (mtch_fields_length _ _ _ _ _ E1), El. reflexivity.
      + intros s. simpl subst_ty. rewrite ty_eqb_obj, map_length, El. reflexivity.
  Qed.

  Lemma mtch_list_spec : forall l1 l2 m,
    List.length l1 = List.length l2 ->
    (forall a, In a l1 -> simple a = true /\ wf_ty a = true /\ forall v, In v (vars_of a) -> W v) ->
    forallb ty_ok l2 = true -> bound_ok m ->
    mpost (flat_map vars_of l1) (fun us => eqb_list us l2) (fun s => eqb_list (map (subst_ty s) l1) l2) m
          (mtch_list l1 l2 m).
  Proof.
    induction l1 as [|a r1 IH]; intros [|b r2] m Hl H1 H2 Hg; try discriminate Hl.
    - apply mpost_keep; auto.
    - simpl in H2. apply andb_true_iff in H2. destruct H2 as [Hb Hr2].
      destruct (H1 a (or_introl Logic.eq_refl)) as (Hsa & Hwa & HWa).
      apply (mpost_seq a b m _ (fun us => eqb_list us r2) (fun s => eqb_list (map (subst_ty s) r1) r2)
                       (mtch_list r1 r2) cons); try assumption; try reflexivity.
      + apply mtch_spec; assumption.
      + intros m1 G1. apply IH; auto. intros a' Hin. apply H1. right. exact Hin.
  Qed.
End MatchSpec.

Definition sname (fresh i : N) : string := "s" ++ string_of_N (fresh + i).
(* what [fresh_ok] says of every variable of a signature *)
Definition not_generated (fresh : N) (v : string) (i : N) : Prop :=
  v <> sname fresh i /\ v <> ("t" ++ string_of_N (fresh + i)).
Definition snames (fresh : N) (n : nat) : list string := map (sname fresh) (seqN 1 n).
Definition tname (fresh : N) (n : nat) : string := "t" ++ string_of_N (fresh + N.of_nat n + 1).
Definition m_init (fresh : N) (params : list ty) (ret : ty) (n : nat) : subst :=
  (combine (snames fresh n) params ++ [(tname fresh n, ret)])%list.

Lemma seqN_ge a n i : In i (seqN a n) -> (a <= i)%N.
Proof.
  revert a. induction n as [|n IH]; intros a H; simpl in H; [contradiction|].
  destruct H as [E|H]; [subst; apply N.le_refl|]. apply IH in H. lia.
Qed.

Lemma seqN_NoDup a n : NoDup (seqN a n).
Proof.
  revert a. induction n as [|n IH]; intros a; simpl; constructor; [|apply IH].
  intros H. apply seqN_ge in H. lia.
Qed.

Lemma seqN_length a n : List.length (seqN a n) = n.
Proof. revert a. induction n as [|n IH]; intros a; simpl; [reflexivity|]. rewrite IH. reflexivity. Qed.

Lemma sname_inj fresh i j : sname fresh i = sname fresh j -> i = j.
Proof.
  unfold sname. simpl. intros H. inversion H as [H']. apply string_of_N_inj in H'. lia.
Qed.

Lemma snames_NoDup fresh n : NoDup (snames fresh n).
Proof. apply Injective_map_NoDup; [intros i j; apply sname_inj|apply seqN_NoDup]. Qed.

Lemma snames_length fresh n : List.length (snames fresh n) = n.
Proof. unfold snames. rewrite map_length. apply seqN_length. Qed.

Lemma snames_In fresh n nm : In nm (snames fresh n) -> exists i, nm = sname fresh i.
Proof. unfold snames. intros H. apply in_map_iff in H. destruct H as [i [E _]]. eauto. Qed.

Lemma tname_not_sname fresh n i : tname fresh n <> sname fresh i.
Proof. unfold tname, sname. simpl. intros H. inversion H. Qed.

Lemma tname_form fresh n : tname fresh n = "t" ++ string_of_N (fresh + (N.of_nat n + 1)).
Proof. unfold tname. rewrite N.add_assoc. reflexivity. Qed.

Lemma update_absent n t (m : subst) : assoc n m = None -> update n t m = (m ++ [(n, t)])%list.
Proof.
  induction m as [|[k v] r IH]; simpl; intros H; [reflexivity|].
  destruct (String.eqb_spec n k) as [E|E]; [discriminate H|].
  destruct (String.eqb_spec k n) as [E'|E']; [congruence|]. rewrite IH by assumption. reflexivity.
Qed.

Lemma assoc_not_in {X} n (l : list (string * X)) : ~ In n (map fst l) -> assoc n l = None.
Proof. intros H. destruct (assoc n l) eqn:E; [|reflexivity]. destruct (H (assoc_In_keys _ _ _ E)). Qed.

Lemma mtch_var_fresh n t m : assoc n m = None -> mtch (TVar n) t m = Ok (t, (m ++ [(n, t)])%list).
Proof. intros H. simpl. rewrite H, update_absent by assumption. reflexivity. Qed.

Lemma unify_fresh_var fa f n t m :
  assoc n m = None -> (forall v, In v (vars_of t) -> assoc v m = None) -> ~ In n (vars_of t) ->
  simple t = true -> wf_ty t = true ->
  rf (fa < ty_size t \/ f < 1) (unify fa f (TVar n) t m) (Ok (t, (m ++ [(n, t)])%list)).
Proof.
  intros Hn Hv Hnot Hs Hw. destruct f as [|f]; [right; split; [reflexivity|lia]|].
  assert (rf (fa < ty_size t \/ S f < 1) (bind_var fa n t m) (Ok (t, (m ++ [(n, t)])%list))) as Hbind.
  { eapply rf_weaken; [|rewrite <- (mtch_var_fresh n _ m Hn); apply bind_var_rf; assumption]. tauto. }
  destruct (is_var t) eqn:Eiv.
  - destruct t; try discriminate Eiv. rename n0 into p. rewrite unify_var_var.
    assert (n <> p) as Hnp by (intros E; apply Hnot; left; auto).
    replace (Ok (TVar p, (m ++ [(n, TVar p)])%list)) with
      (let* ax := Ok (TVar n) in let* ay := Ok (TVar p) in
       if ty_eqb ax ay then Ok (TVar n, m) else (Ok (TVar p, (m ++ [(n, TVar p)])%list) : res (ty * subst))).
    2:{ simpl. destruct (String.eqb_spec n p); [contradiction|reflexivity]. }
    apply rf_bind.
    { eapply rf_weaken; [|apply apply_subst_unbound_rf]; [simpl; lia| |reflexivity].
      intros v [E|[]]. subst v. exact Hn. }
    intros ax _. apply rf_bind.
    { eapply rf_weaken; [|apply apply_subst_unbound_rf]; [simpl; lia|exact Hv|reflexivity]. }
    intros ay _. destruct (ty_eqb ax ay); [apply rf_refl|exact Hbind].
  - rewrite unify_var by assumption. exact Hbind.
Qed.

Lemma size_list_le (l : list ty) : List.length l <= fold_right (fun x a => ty_size x + a) 0 l.
Proof. induction l as [|a r IH]; simpl; [lia|]. pose proof (ty_size_pos a). lia. Qed.

Lemma size_map_TVar (l : list string) : fold_right (fun x a => ty_size x + a) 0 (map TVar l) = List.length l.
Proof. induction l as [|a r IH]; simpl; [reflexivity|]. rewrite IH. reflexivity. Qed.

Lemma unify_list_fresh fa f : forall names ps m,
  List.length names = List.length ps -> NoDup names ->
  (forall n, In n names -> assoc n m = None) ->
  (forall n p, In n names -> In p ps -> ~ In n (vars_of p)) ->
  (forall p v, In p ps -> In v (vars_of p) -> assoc v m = None) ->
  (forall p, In p ps -> simple p = true /\ wf_ty p = true) ->
  rf (fa < ty_size (TTuple ps) \/ f < 1) (unify_list fa f (map TVar names) ps m) (Ok (ps, (m ++ combine names ps)%list)).
Proof.
  induction names as [|n names IH]; intros [|p ps] m Hl Hnd Hn Hnp Hv Hp; simpl in Hl; try discriminate Hl.
  - simpl. rewrite app_nil_r. apply rf_refl.
  - inversion Hnd as [|? ? Hnotin Hnd']; subst.
    destruct (Hp p (or_introl Logic.eq_refl)) as [Hsp Hwp].
    simpl map. rewrite unify_list_cons.
    replace (Ok (p :: ps, (m ++ combine (n :: names) (p :: ps))%list)) with
      (let* (u, m1) := Ok (p, (m ++ [(n, p)])%list) in
       let* (us, m2) := Ok (ps, (m1 ++ combine names ps)%list) in (Ok (u :: us, m2) : res (list ty * subst))).
    2:{ simpl. rewrite <- app_assoc. reflexivity. }
    apply rf_bind.
    { eapply rf_weaken; [|apply unify_fresh_var; auto].
      - simpl. lia.
      - apply Hn. left; reflexivity.
      - intros v Hv'. eapply Hv; [left; reflexivity|exact Hv'].
      - apply Hnp; left; reflexivity. }
    intros [u m1] E. inversion E; subst u m1.
    apply rf_bind; [|intros [us m2] _; apply rf_refl].
    eapply rf_weaken; [|apply IH]; try assumption.
    + simpl. lia.
    + lia.
    + intros n' Hn'. rewrite assoc_app, (Hn n') by (right; exact Hn'). simpl.
      destruct (String.eqb_spec n' n); [subst; contradiction|reflexivity].
    + intros n' p' Hn' Hp'. apply Hnp; right; assumption.
    + intros p' v Hp' Hv'. rewrite assoc_app, (Hv p' v) by (try right; assumption). simpl.
      destruct (String.eqb_spec v n) as [E'|E']; [|reflexivity].
      subst v. exfalso. apply (Hnp n p'); [left; reflexivity|right; exact Hp'|exact Hv'].
    + intros p' Hp'. apply Hp. right; exact Hp'.
Qed.

Definition msize (m : subst) : nat := fold_right (fun kv a => ty_size (snd kv) + a) 0 m.

Lemma msize_assoc m n u : assoc n m = Some u -> ty_size u <= msize m.
Proof. intros H. exact (size_in_fields m (n, u) (assoc_In _ _ _ H)). Qed.

Lemma apply_subst_chase fa m n p B :
  assoc n m = Some p -> ~ In n (vars_of p) ->
  (forall v u, In v (vars_of p) -> assoc v m = Some u -> slot_free u = true /\ wf_ty u = true /\ ty_size u <= B) ->
  rf (fa < ty_size p + B + 1) (apply_subst fa m (TVar n)) (asub m p).
Proof.
  intros Ha Hn Hb. destruct fa as [|fa]; [right; split; [reflexivity|lia]|].
  simpl. rewrite Ha, (not_in_vars_not_named _ _ Hn).
  eapply rf_weaken; [|apply (apply_subst_rf fa m p B Hb)]. lia.
Qed.

Lemma rmapM_names {Y} P (g : ty -> res Y) : forall names (ps : list Y),
  List.length names = List.length ps ->
  (forall n p, In (n, p) (combine names ps) -> rf P (g (TVar n)) (Ok p)) ->
  rf P (rmapM g (map TVar names)) (Ok ps).
Proof.
  induction names as [|n names IH]; intros [|p ps] Hl H; simpl in Hl; try discriminate Hl.
  - apply rf_refl.
  - simpl. eapply rf_bind_ok; [apply H; left; reflexivity|].
    eapply rf_bind_ok; [apply (IH ps); [lia|intros n' p' Hin; apply H; right; exact Hin]|]. apply rf_refl.
Qed.

Lemma wf_map_TVar l : forallb wf_ty (map TVar l) = true.
Proof. induction l; simpl; auto. Qed.

Lemma unify_list_rf fa f : forall l1 l2 m,
  forallb simple l1 = true -> forallb ty_ok l2 = true ->
  rf (fa < ty_size (TTuple l2) \/ f < ty_size (TTuple l1)) (unify_list fa f l1 l2 m) (mtch_list l1 l2 m).
Proof.
  induction l1 as [|a r1 IH]; intros [|b r2] m H1 H2; try apply rf_refl.
  simpl in H1, H2. apply andb_true_iff in H1. apply andb_true_iff in H2.
  destruct H1 as [Ha Hr1]. destruct H2 as [Hb Hr2].
  rewrite unify_list_cons. simpl mtch_list. apply rf_bind.
  { eapply rf_weaken; [|exact (unify_rf fa a f b m Ha Hb)]. simpl. lia. }
  intros [u m1] _. apply rf_bind; [|intros [us m2] _; apply rf_refl].
  eapply rf_weaken; [|apply IH; assumption]. simpl. lia.
Qed.

Section Infer.
  Variables (fresh : N) (name : string) (params : list ty) (ret : ty) (args : list ty).
  Hypothesis Hp : forall p, In p params -> simple p = true /\ wf_ty p = true.
  Hypothesis Hr1 : simple ret = true.
  Hypothesis Hr2 : wf_ty ret = true.
  Hypothesis Hfr : forall v i, In v (flat_map vars_of (ret :: params)) -> not_generated fresh v i.
  Hypothesis Ha : forallb ty_ok args = true.

  Let n := List.length args.
  Let m1 := m_init fresh params ret n.
  Let W := fun v => In v (flat_map vars_of params).

  Lemma vars_param_in p v : In p params -> In v (vars_of p) -> In v (flat_map vars_of (ret :: params)).
  Proof. intros Hp' Hv. simpl. apply in_or_app. right. apply in_flat_map. eauto. Qed.

  Lemma not_key_combine v : (forall i, v <> sname fresh i) -> ~ In v (map fst (combine (snames fresh n) params)).
  Proof.
    intros Hv Hin. apply in_map_iff in Hin. destruct Hin as [[k p] [E Hin]]. simpl in E. subst k.
    apply in_combine_l in Hin. apply snames_In in Hin. destruct Hin as [i E]. exact (Hv i E).
  Qed.

  Lemma m1_unbound v : In v (flat_map vars_of (ret :: params)) -> assoc v m1 = None.
  Proof.
    intros Hv. unfold m1, m_init. rewrite assoc_app.
    rewrite (assoc_not_in v (combine (snames fresh n) params)).
    - simpl. destruct (String.eqb_spec v (tname fresh n)) as [E|E]; [|reflexivity].
      exfalso. rewrite tname_form in E. exact (proj2 (Hfr v _ Hv) E).
    - apply not_key_combine. intros i. exact (proj1 (Hfr v i Hv)).
  Qed.

  Lemma m1_t : assoc (tname fresh n) m1 = Some ret.
  Proof.
    unfold m1, m_init. rewrite assoc_app, (assoc_not_in (tname fresh n) (combine (snames fresh n) params)).
    - simpl. rewrite String.eqb_refl. reflexivity.
    - apply not_key_combine. intros i. apply tname_not_sname.
  Qed.

  Lemma m1_s nm p : List.length params = n -> In (nm, p) (combine (snames fresh n) params) -> assoc nm m1 = Some p.
  Proof.
    intros Hl Hin. unfold m1, m_init. rewrite assoc_app.
    rewrite (In_assoc nm (combine (snames fresh n) params) p); [reflexivity| |exact Hin].
    rewrite map_fst_combine by (rewrite snames_length; auto). apply snames_NoDup.
  Qed.

  Lemma t_not_in_ret : ~ In (tname fresh n) (vars_of ret).
  Proof.
    intros Hin. rewrite tname_form in Hin.
    refine (proj2 (Hfr _ (N.of_nat n + 1)%N _) Logic.eq_refl). simpl. apply in_or_app. left. exact Hin.
  Qed.

  (* inferFun (types/typecheck.go) builds this pseudo function and unifies it with f in the empty substitution *)
  Definition pseudo : ty := TFun name [TTuple (map TVar (snames fresh n))] (TVar (tname fresh n)).

  Lemma unify_pseudo fa f :
    rf (fa < n + 2 + ty_size (TTuple params) + ty_size ret \/ f < 3)
       (unify fa f pseudo (TFun name [TTuple params] ret) [])
       (if Nat.eqb n (List.length params) then Ok (TFun name [TTuple params] ret, m1) else Fail).
  Proof.
    destruct f as [|f]; [right; split; [reflexivity|lia]|].
    unfold pseudo. rewrite unify_tfun1.
    eapply rf_bind_ok.
    { eapply rf_weaken; [|apply apply_subst_unbound_rf].
      - simpl. rewrite size_map_TVar, snames_length. lia.
      - intros v _. reflexivity.
      - simpl. apply wf_map_TVar. }
    eapply rf_bind_ok.
    { eapply rf_weaken; [|apply apply_subst_unbound_rf]; [lia|intros v _; reflexivity|].
      simpl. apply forallb_forall. intros p Hin. apply Hp; assumption. }
    destruct f as [|f]; [right; split; [reflexivity|lia]|].
    rewrite unify_tuple, map_length, snames_length.
    destruct (Nat.eqb n (List.length params)) eqn:El; simpl negb; cbv iota; [|apply rf_refl].
    apply Nat.eqb_eq in El.
    eapply rf_bind_ok.
    { eapply rf_bind_ok.
      { eapply rf_weaken; [|apply unify_list_fresh].
        - simpl. intros [H|H]; [left|right]; lia.
        - rewrite snames_length. exact El.
        - apply snames_NoDup.
        - intros v _. reflexivity.
        - intros nm p Hnm Hp' Hv. apply snames_In in Hnm. destruct Hnm as [i E]. subst nm.
          exact (proj1 (Hfr _ i (vars_param_in _ _ Hp' Hv)) Logic.eq_refl).
        - intros p v _ _. reflexivity.
        - exact Hp. }
      apply rf_refl. }
    cbv beta iota.
    eapply rf_bind_ok.
    { eapply rf_weaken; [|apply unify_fresh_var]; try assumption.
      - intros [H|H]; [left|right]; lia.
      - simpl. apply assoc_not_in. apply not_key_combine. intros i. apply tname_not_sname.
      - intros v Hv. simpl. apply assoc_not_in. apply not_key_combine. intros i.
        refine (proj1 (Hfr v i _)). simpl. apply in_or_app. left. exact Hv.
      - apply t_not_in_ret. }
    apply rf_refl.
  Qed.

  (* the pseudo function's arguments, read back, are the parameters *)
  Lemma apply_pseudo_args fa : List.length params = n ->
    rf (fa < ty_size (TTuple params) + 2) (apply_subst fa m1 (TTuple (map TVar (snames fresh n)))) (Ok (TTuple params)).
  Proof.
    intros Hl. destruct fa as [|fa]; [right; split; [reflexivity|lia]|].
    simpl apply_subst. unfold rmap. eapply rf_bind_ok; [|apply rf_refl].
    apply rmapM_names; [rewrite snames_length; auto|].
    intros nm p Hin.
    assert (In p params) as Hpin by (eapply in_combine_r; eauto).
    assert (In nm (snames fresh n)) as Hnm by (eapply in_combine_l; eauto).
    destruct (Hp p Hpin) as [Hsp Hwp].
    assert (forall v, In v (vars_of p) -> assoc v m1 = None) as Hun.
    { intros v Hv. apply m1_unbound. eapply vars_param_in; eauto. }
    rewrite <- (asub_unbound m1 p Hun Hwp).
    eapply rf_weaken; [|apply (apply_subst_chase fa m1 nm p 0)].
    - pose proof (size_in_list _ _ Hpin). simpl. lia.
    - apply m1_s; assumption.
    - intros Hv. apply snames_In in Hnm. destruct Hnm as [i E]. subst nm.
      exact (proj1 (Hfr _ i (vars_param_in _ _ Hpin Hv)) Logic.eq_refl).
    - intros v u Hv Hu. rewrite (Hun v Hv) in Hu. discriminate Hu.
  Qed.

  Lemma params_pre : forall a, In a params -> simple a = true /\ wf_ty a = true /\ forall v, In v (vars_of a) -> W v.
  Proof.
    intros a Hin. destruct (Hp a Hin) as [H1 H2]. repeat split; try assumption.
    intros v Hv. unfold W. apply in_flat_map. eauto.
  Qed.

  Lemma bound_ok_m1 : bound_ok W m1.
  Proof.
    intros v Hv u Hu. rewrite m1_unbound in Hu; [discriminate Hu|].
    simpl. apply in_or_app. right. exact Hv.
  Qed.

  (* after the arguments are matched t is still bound to ret, and ret's variables are bound to checked types *)
  Lemma after_match ks m2 : List.length params = n -> mtch_list params args m1 = Ok (ks, m2) ->
    assoc (tname fresh n) m2 = Some ret /\
    (forall v u, In v (vars_of ret) -> assoc v m2 = Some u -> W v /\ ty_ok u = true).
  Proof.
    intros Hl HM. pose proof (mtch_list_spec W params args m1 Hl params_pre Ha bound_ok_m1) as HS.
    rewrite HM in HS. destruct HS as [[P1 [G1 X1]] _].
    split.
    - rewrite P1; [apply m1_t|]. intros Hin.
      apply in_flat_map in Hin. destruct Hin as [p [Hp' Hv]].
      pose proof (vars_param_in _ _ Hp' Hv) as Hin. rewrite tname_form in Hin.
      exact (proj2 (Hfr _ _ Hin) Logic.eq_refl).
    - intros v u Hv Hu.
      destruct (in_dec string_dec v (flat_map vars_of params)) as [Hin|Hnin].
      + split; [exact Hin|]. exact (G1 v Hin u Hu).
      + rewrite (P1 v Hnin), m1_unbound in Hu; [discriminate Hu|]. simpl. apply in_or_app. left. exact Hv.
  Qed.

  Definition infer_spec (fresh : N) (params : list ty) (ret : ty) (args : list ty) : res (list ty * ty) :=
    if negb (Nat.eqb (List.length args) (List.length params)) then Fail else
    let* (ks, m2) := mtch_list params args (m_init fresh params ret (List.length args)) in
    let* tres := asub m2 ret in
    if slot_free tres then Ok (ks, tres) else Fail.

  (* The sum of what the steps ask: [unify_pseudo], [apply_pseudo_args], [unify_list_rf] (|args| on one side, |params| on
     the other), and reading t back by [apply_subst_chase] with B the size of the substitution the matcher returns, which
     is why the bound runs the matcher.  n <= |args| ([size_list_le]); 2 * |args| + 5 rounds the constants up. *)
  Definition infer_bound (fresh : N) (params : list ty) (ret : ty) (args : list ty) : nat :=
    match mtch_list params args (m_init fresh params ret (List.length args)) with
    | Ok (_, m2) => msize m2
    | _ => 0
    end + ty_size (TTuple params) + ty_size ret + 2 * ty_size (TTuple args) + 5.

  Lemma infer_rf fa f :
    rf (fa < infer_bound fresh params ret args \/ f < infer_bound fresh params ret args)
       (infer_fun fa f fresh name params ret args) (infer_spec fresh params ret args).
  Proof.
    assert (map (fun i => fresh_var "s" (fresh + i)) (seqN 1 n) = map TVar (snames fresh n)) as Esx.
    { unfold snames. rewrite map_map. reflexivity. }
    unfold infer_fun, infer_spec. fold n. rewrite Esx.
    change (fresh_var "t" (fresh + N.of_nat n + 1)) with (TVar (tname fresh n)).
    fold pseudo. fold m1.
    pose proof (size_list_le args) as Hsz. fold n in Hsz.
    assert (n + 2 + ty_size (TTuple params) + ty_size ret + 3 <= infer_bound fresh params ret args) as Hb0.
    { unfold infer_bound. simpl. lia. }
    destruct (Nat.eqb n (List.length params)) eqn:El.
    2:{ simpl negb. cbv iota. apply rf_bind_fail.
        eapply rf_weaken; [|pose proof (unify_pseudo fa f) as H; rewrite El in H; exact H]. lia. }
    simpl negb. cbv iota. pose proof El as El'. apply Nat.eqb_eq in El'.
    eapply rf_bind_ok.
    { eapply rf_weaken; [|pose proof (unify_pseudo fa f) as H; rewrite El in H; exact H]. lia. }
    cbv beta iota.
    eapply rf_bind_ok.
    { eapply rf_weaken; [|apply apply_pseudo_args; auto]. lia. }
    destruct f as [|f]; [right; split; [reflexivity|lia]|].
    rewrite unify_tuple. rewrite <- El', Nat.eqb_refl. simpl negb. cbv iota.
    assert (rf (fa < infer_bound fresh params ret args \/ S f < infer_bound fresh params ret args)
               (unify_list fa f params args m1) (mtch_list params args m1)) as H3.
    { eapply rf_weaken; [|apply unify_list_rf; [|exact Ha]].
      - unfold infer_bound. simpl. lia.
      - apply forallb_forall. intros p Hin. apply Hp; assumption. }
    unfold infer_bound in *. fold n in H3, Hb0 |- *. fold m1 in H3, Hb0 |- *.
    (* the bound is defined through this run of the matcher; a result that is not Ok passes through both binds *)
    destruct (mtch_list params args m1) as [[ks m2]| | |] eqn:EM;
      [|destruct H3 as [E|[E HP]]; rewrite E; [left; reflexivity|right; split; [reflexivity|exact HP]]..].
    eapply rf_bind_ok.
    { eapply rf_bind_ok; [exact H3|]. apply rf_refl. }
    cbv beta iota.
    destruct (after_match ks m2 (Logic.eq_sym El') EM) as [Ht Hv].
    cbn [rbind].
    apply rf_bind; [|intros tres _; apply rf_refl].
    eapply rf_weaken; [|apply (apply_subst_chase fa m2 (tname fresh n) ret (msize m2) Ht t_not_in_ret)].
    - simpl. lia.
    - intros v u Hin Hu. destruct (Hv v u Hin Hu) as [_ Hok].
      destruct (ty_ok_parts _ Hok) as [A [B _]]. repeat split; try assumption. eapply msize_assoc; eauto.
  Qed.
End Infer.

(* [tys_eqb] (CheckSpec), [params_match] (Check) and [eqb_list] are one fixpoint written three times: what is proved
   of one is used of the others by conversion *)
Lemma eqb_list_length a b : eqb_list a b = true -> List.length a = List.length b.
Proof. intros H. exact (Forall2_len _ _ _ (proj1 (eqb_list_Forall2 a b) H)). Qed.

Lemma keyable_nonvar_subst s k : keyable k = true -> is_var k = false -> subst_ty s k = k.
Proof. destruct k; simpl; intros H1 H2; try discriminate H1; try discriminate H2; reflexivity. Qed.

Lemma subst_ok : forall t s, simple t = true -> wf_ty t = true -> no_var_key t = true ->
  (forall v, In v (vars_of t) -> exists u, assoc v s = Some u /\ ty_ok u = true) -> ty_ok (subst_ty s t) = true.
Proof.
  induction t using ty_ind'; intros s Hs Hw Hk Hv; try reflexivity; try discriminate Hs.
  - simpl. destruct (Hv n (or_introl Logic.eq_refl)) as [u [E Hu]]. rewrite E. exact Hu.
  - apply (IHt s); assumption.
  - apply wf_map in Hw. destruct Hw as [K [W1 W2]]. simpl in Hs, Hk.
    apply andb_true_iff in Hs. destruct Hs as [S1 S2].
    apply andb_true_iff in Hk. destruct Hk as [Hk K2]. apply andb_true_iff in Hk. destruct Hk as [K0 K1].
    apply negb_true_iff in K0. simpl. apply ty_ok_mapk.
    + rewrite (keyable_nonvar_subst s t1 K K0). exact K.
    + apply IHt1; try assumption. intros v Hin. apply Hv. simpl. apply in_or_app. tauto.
    + apply IHt2; try assumption. intros v Hin. apply Hv. simpl. apply in_or_app. tauto.
  - pose proof Hw as Hw'. apply wf_obj in Hw'. destruct Hw' as [_ Hwf].
    simpl in Hw. apply andb_true_iff in Hw. destruct Hw as [Hnd _].
    simpl. apply ty_ok_obj; [rewrite map_fst_keyed; exact Hnd|]. apply Forall_map, Forall_forall. intros [n t] Hin. simpl.
    rewrite Forall_forall in H. apply (H (n, t) Hin); [eapply simple_obj_in; eauto|eauto| |].
    + simpl in Hk. rewrite forallb_forall in Hk. apply (Hk _ Hin).
    + intros v Hv'. apply Hv. exact (part_vars t (TObj fs) v (ex_intro _ n Hin) Hv').
  - apply (IHt s); assumption.
Qed.

Lemma asub_subst_ty : forall t m, simple t = true -> wf_ty t = true -> no_var_key t = true ->
  asub m t = Ok (subst_ty m t).
Proof.
  induction t using ty_ind'; intros m Hs Hw Hk; try reflexivity; try discriminate Hs.
  - simpl. destruct (assoc n m); reflexivity.
  - simpl in *. rewrite IHt by assumption. reflexivity.
  - apply wf_map in Hw. destruct Hw as [K [W1 W2]]. simpl in Hs, Hk.
    apply andb_true_iff in Hs. destruct Hs as [S1 S2].
    apply andb_true_iff in Hk. destruct Hk as [Hk K2]. apply andb_true_iff in Hk. destruct Hk as [K0 K1].
    apply negb_true_iff in K0. simpl.
    rewrite IHt1, IHt2 by assumption. simpl. unfold mk_map.
    rewrite (keyable_nonvar_subst m t1 K K0), K. reflexivity.
  - pose proof Hw as Hw'. apply wf_obj in Hw'. destruct Hw' as [_ Hwf].
    simpl. 
    rewrite (rmapM_map_ok _ (fun f => (fst f, subst_ty m (snd f)))); [reflexivity|].
    intros [n t] Hin. simpl. rewrite Forall_forall in H. specialize (H (n, t) Hin m). simpl in H.
    rewrite H; [reflexivity| | |].
    + eapply simple_obj_in; eauto.
    + eauto.
    + simpl in Hk. rewrite forallb_forall in Hk. apply (Hk _ Hin).
  - simpl in *. rewrite IHt by assumption. reflexivity.
Qed.

Lemma slot_free_subst_bound : forall t s, simple t = true -> slot_free (subst_ty s t) = true ->
  forall v, In v (vars_of t) -> exists u, assoc v s = Some u.
Proof.
  induction t using ty_ind'; intros s Hs Hf v Hv; try (simpl in Hv; contradiction); try discriminate Hs.
  - simpl in Hv. destruct Hv as [E|[]]. subst v. simpl in Hf. destruct (assoc n s) as [u|]; [eauto|discriminate Hf].
  - simpl in *. eauto.
  - simpl in *. apply andb_true_iff in Hs. apply andb_true_iff in Hf. destruct Hs, Hf.
    apply in_app_or in Hv. destruct Hv; [eapply IHt1|eapply IHt2]; eassumption.
  - simpl in Hv. apply in_flat_map in Hv. destruct Hv as [[n t] [Hin Hv]].
    rewrite Forall_forall in H. apply (H (n, t) Hin s); [eapply simple_obj_in; eauto| |exact Hv].
    simpl in Hf. rewrite forallb_forall in Hf. apply (Hf (n, subst_ty s t)).
    apply in_map_iff. exists (n, t). auto.
  - simpl in *. eauto.
Qed.

Lemma instantiates_ok s params ret args rt :
  simple ret = true -> wf_ty ret = true -> no_var_key ret = true ->
  instantiates s params ret args rt -> ty_ok rt = true.
Proof.
  intros R1 R2 R3 [_ [Hg [Hw [_ [E Hsf]]]]]. subst rt. apply subst_ok; try assumption. intros v Hv.
  destruct (slot_free_subst_bound ret s R1 Hsf v Hv) as [u Hu]. exists u. split; [exact Hu|].
  destruct (ground_assoc _ _ _ Hg Hu). apply ty_ok_intro; [assumption|eapply wf_assoc; eauto|assumption].
Qed.

Lemma sig_ok_parts sg : sig_ok sg = true ->
  (forall p, In p (s_params sg) -> simple p = true /\ wf_ty p = true) /\ simple (s_ret sg) = true /\ wf_ty (s_ret sg) = true.
Proof.
  unfold sig_ok. intros H. apply andb_true_iff in H. destruct H as [H H3]. apply andb_true_iff in H. destruct H as [H1 H2].
  repeat split; try assumption; rewrite forallb_forall in H1; specialize (H1 p H);
    apply andb_true_iff in H1; tauto.
Qed.

(* what [fenv_ok] and [fresh_ok] give of one polymorphic signature ([psig_ok_intro]) *)
Definition psig_ok (fresh : N) (sg : fsig) : Prop :=
  sig_ok sg = true /\ no_var_key (s_ret sg) = true /\
  forall v i, In v (flat_map vars_of (s_ret sg :: s_params sg)) -> not_generated fresh v i.

Definition spec_opt (fresh : N) (sg : fsig) (args : list ty) : option (list ty * ty) :=
  match infer_spec fresh (s_params sg) (s_ret sg) args with Ok x => Some x | _ => None end.

Section Spec.
  Variables (fresh : N) (sg : fsig) (args : list ty).
  Hypothesis Hsg : psig_ok fresh sg.
  Hypothesis Ha : forallb ty_ok args = true.

  Let params := s_params sg.
  Let ret := s_ret sg.
  Let Hp : forall p, In p params -> simple p = true /\ wf_ty p = true := proj1 (sig_ok_parts sg (proj1 Hsg)).
  Let Hr1 : simple ret = true := proj1 (proj2 (sig_ok_parts sg (proj1 Hsg))).
  Let Hr2 : wf_ty ret = true := proj2 (proj2 (sig_ok_parts sg (proj1 Hsg))).
  Let Hnk : no_var_key ret = true := proj1 (proj2 Hsg).
  Let Hfr : forall v i, In v (flat_map vars_of (ret :: params)) -> not_generated fresh v i := proj2 (proj2 Hsg).
  Let n := List.length args.
  Let m1 := m_init fresh params ret n.
  Let Wl := flat_map vars_of params.
  Let W := fun v => In v Wl.

  Lemma spec_run : List.length params = n ->
    mpost W Wl (fun us => eqb_list us args) (fun s => eqb_list (map (subst_ty s) params) args) m1
          (mtch_list params args m1).
  Proof.
    intros Hl. exact (mtch_list_spec W params args m1 Hl (params_pre params Hp) Ha (bound_ok_m1 fresh params ret args Hfr)).
  Qed.

  Lemma spec_opt_sound ps rt :
    spec_opt fresh sg args = Some (ps, rt) -> params_match ps args = true ->
    (exists s, instantiates s params ret args rt) /\ ty_ok rt = true.
  Proof.
    unfold spec_opt, infer_spec. fold params ret n m1. intros HI HE.
    destruct (Nat.eqb n (List.length params)) eqn:El; simpl in HI; [|discriminate HI].
    apply Nat.eqb_eq in El.
    pose proof (spec_run (Logic.eq_sym El)) as HS.
    destruct (mtch_list params args m1) as [[ks m2]| | |]; simpl in HI; try discriminate HI.
    rewrite (asub_subst_ty ret m2 Hr1 Hr2 Hnk) in HI. simpl in HI.
    destruct (slot_free (subst_ty m2 ret)) eqn:Esf; [|discriminate HI]. inversion HI; subst ks rt. clear HI.
    destruct HS as ([P1 [G1 X1]] & Q1 & _). destruct (Q1 HE) as [Bd T].
    set (s := map (fun v => (v, subst_ty m2 (TVar v))) Wl).
    assert (forall v, In v Wl -> assoc v s = assoc v m2) as Hin_s.
    { intros v Hv. destruct (Bd v Hv) as [u Hu]. unfold s. rewrite assoc_tabulate by exact Hv. simpl. rewrite Hu.
      reflexivity. }
    assert (forall k u, In (k, u) s -> ty_ok u = true) as Hs_ok.
    { intros k u Hin. apply in_map_iff in Hin. destruct Hin as [v [E Hv]]. inversion E; subst k u.
      destruct (Bd v Hv) as [u Hu]. simpl. rewrite Hu. exact (G1 v Hv u Hu). }
    assert (forall v, In v (vars_of ret) -> assoc v s = assoc v m2) as Hagree.
    { intros v Hv. destruct (in_dec string_dec v Wl) as [Hin|Hnin]; [exact (Hin_s v Hin)|].
      rewrite (assoc_not_in v s) by (unfold s; rewrite keys_tabulate; exact Hnin). symmetry. rewrite (P1 v Hnin).
      apply (m1_unbound fresh params ret args Hfr). simpl. apply in_or_app. left. exact Hv. }
    assert (subst_ty m2 ret = subst_ty s ret) as Eret by (apply subst_ty_eq_cong; [exact Hr1|intros v Hv; symmetry; auto]).
    assert (instantiates s params ret args (subst_ty m2 ret)) as HI.
    { repeat split.
      + intros k Hk. unfold s in Hk. rewrite keys_tabulate in Hk. exact Hk.
      + unfold ground_subst. apply forallb_forall. intros [k u] Hin. simpl.
        destruct (ty_ok_parts _ (Hs_ok k u Hin)) as [A [_ C]]. rewrite A, C. reflexivity.
      + apply forallb_forall. intros [k u] Hin. simpl. destruct (ty_ok_parts _ (Hs_ok k u Hin)) as [_ [B _]]. exact B.
      + rewrite <- T. change (eqb_list (map (subst_ty s) params) args = eqb_list (map (subst_ty m2) params) args). f_equal. apply map_ext_in. intros p Hin.
        apply subst_ty_eq_cong; [apply Hp; exact Hin|]. intros v Hv. apply Hin_s, in_flat_map. eauto.
      + exact Eret.
      + exact Esf. }
    split; [exists s; exact HI|exact (instantiates_ok _ _ _ _ _ Hr1 Hr2 Hnk HI)].
  Qed.

  Lemma spec_opt_complete s rt' :
    instantiates s params ret args rt' ->
    exists ps rt, spec_opt fresh sg args = Some (ps, rt) /\ params_match ps args = true /\ ty_eqb rt rt' = true.
  Proof.
    intros [Hdom [Hgs [Hws [HT [Hrt Hsf]]]]].
    pose proof (eqb_list_length _ _ HT) as Hlen. rewrite map_length in Hlen.
    unfold spec_opt, infer_spec. fold params ret n m1. fold n in Hlen. rewrite <- Hlen, Nat.eqb_refl. simpl negb. cbv iota.
    assert (compat s m1) as Hc1.
    { intros k u u' Hu Hu'. exfalso. apply assoc_In_keys in Hu'. apply Hdom in Hu'.
      rewrite (m1_unbound fresh params ret args Hfr) in Hu; [discriminate Hu|].
      simpl. apply in_or_app. right. exact Hu'. }
    pose proof (spec_run Hlen) as HS.
    destruct (mtch_list params args m1) as [[us m2]| | |]; [|exfalso; exact (HS s Hws Hc1 HT)|destruct HS|destruct HS].
    destruct HS as ([P1 [G1 X1]] & Q1 & C1). destruct (C1 s Hws Hc1 HT) as [Hc2 HE]. destruct (Q1 HE) as [Bd T]. simpl.
    rewrite (asub_subst_ty ret m2 Hr1 Hr2 Hnk). simpl.
    assert (forall v, In v (vars_of ret) ->
              exists u1 u2, assoc v s = Some u1 /\ assoc v m2 = Some u2 /\ ty_eqb u2 u1 = true) as Hboth.
    { intros v Hv. subst rt'. destruct (slot_free_subst_bound ret s Hr1 Hsf v Hv) as [u1 Hu1].
      assert (In v Wl) as Hin by (apply Hdom; eapply assoc_In_keys; eauto).
      destruct (Bd v Hin) as [u2 Hu2]. exists u1, u2. repeat split; try assumption. eapply Hc2; eauto. }
    assert (ty_ok (subst_ty m2 ret) = true) as Kt.
    { apply subst_ok; try assumption. intros v Hv. destruct (Hboth v Hv) as [u1 [u2 [H1 [H2 _]]]].
      exists u2. split; [exact H2|]. apply (G1 v); [|exact H2]. apply Hdom. eapply assoc_In_keys; eauto. }
    rewrite (proj1 (ty_ok_parts _ Kt)). exists us, (subst_ty m2 ret). repeat split; try assumption.
    subst rt'. apply subst_ty_eqb_cong; assumption.
  Qed.

  Lemma spec_total :
    infer_spec fresh params ret args = Fail \/ exists ps rt, infer_spec fresh params ret args = Ok (ps, rt).
  Proof.
    unfold infer_spec. fold n. fold m1. destruct (Nat.eqb n (List.length params)) eqn:El; [|left; reflexivity].
    apply Nat.eqb_eq in El. pose proof (spec_run (Logic.eq_sym El)) as HS.
    destruct (mtch_list params args m1) as [[us m2]| | |]; [|left; reflexivity|destruct HS|destruct HS].
    simpl. rewrite (asub_subst_ty ret m2 Hr1 Hr2 Hnk). simpl.
    destruct (slot_free (subst_ty m2 ret)); [right; eauto|left; reflexivity].
  Qed.

  Lemma try_infer_cases fuel :
    try_infer fuel fresh sg args = COk (spec_opt fresh sg args) \/
    (try_infer fuel fresh sg args = CFuel /\ fuel < infer_bound fresh params ret args).
  Proof.
    unfold try_infer, spec_opt.
    destruct (infer_rf fresh (s_name sg) params ret args Hp Hr1 Hr2 Hfr Ha fuel fuel) as [E|[E Hlow]]; fold params ret; rewrite E.
    - left. destruct spec_total as [E2|[ps [rt E2]]]; rewrite E2; reflexivity.
    - right. split; [reflexivity|lia].
  Qed.
End Spec.

Lemma fenv_mono fe k sg : fenv_ok fe = true -> assoc k (f_mono fe) = Some sg ->
  sig_ok sg = true /\ slot_free (sig_ty sg) = true.
Proof.
  unfold fenv_ok. intros H Ha. apply andb_true_iff in H. destruct H as [H _].
  rewrite forallb_forall in H. specialize (H _ (assoc_In _ _ _ Ha)). simpl in H. apply andb_true_iff in H. exact H.
Qed.

Lemma mono_ret_ok fe k sg : fenv_ok fe = true -> assoc k (f_mono fe) = Some sg -> ty_ok (s_ret sg) = true.
Proof.
  intros H Ha. destruct (fenv_mono fe k sg H Ha) as [Hs Hsf]. destruct (sig_ok_parts _ Hs) as [_ [R1 R2]].
  simpl in Hsf. apply andb_true_iff in Hsf. apply ty_ok_intro; tauto.
Qed.

Lemma fenv_poly fe k sigs sg : fenv_ok fe = true -> assoc k (f_poly fe) = Some sigs -> In sg sigs ->
  sig_ok sg = true /\ no_var_key (s_ret sg) = true.
Proof.
  unfold fenv_ok. intros H Ha Hin. apply andb_true_iff in H. destruct H as [_ H].
  rewrite forallb_forall in H. specialize (H _ (assoc_In _ _ _ Ha)). simpl in H.
  rewrite forallb_forall in H. specialize (H _ Hin). apply andb_true_iff in H. exact H.
Qed.

Lemma psig_ok_intro fe fresh k sigs sg :
  fenv_ok fe = true -> fresh_ok fe fresh -> assoc k (f_poly fe) = Some sigs -> In sg sigs -> psig_ok fresh sg.
Proof.
  intros Hfe Hfr Ha Hin. destruct (fenv_poly fe k sigs sg Hfe Ha Hin) as [H1 H2].
  repeat split; try assumption; apply (Hfr k sigs sg v i Ha Hin H).
Qed.

(* the loop over the overloads nested in [resolve], as a function of its own ([resolve_unfold]) *)
Definition resolve_go (fuel : nat) (fresh : N) (pk : string) (args : list ty) :=
  fix go (sigs : list fsig) (i : Z) : cres (string * Z * list ty * ty) :=
    match sigs with
    | [] => CErr
    | s :: r =>
        let+ o := try_infer fuel fresh s args in
        match o with
        | Some (ps, rt) => if params_match ps args then COk (pk, i, ps, rt) else go r (i + 1)%Z
        | None => go r (i + 1)%Z
        end
    end.

Lemma resolve_go_cons fuel fresh pk args sg r i :
  resolve_go fuel fresh pk args (sg :: r) i =
  let+ o := try_infer fuel fresh sg args in
  match o with
  | Some (ps, rt) => if params_match ps args then COk (pk, i, ps, rt) else resolve_go fuel fresh pk args r (i + 1)%Z
  | None => resolve_go fuel fresh pk args r (i + 1)%Z
  end.
Proof. reflexivity. Qed.

Lemma resolve_unfold fe fuel fresh name args :
  resolve fe fuel fresh name args =
  match assoc (mono_key name args) (f_mono fe) with
  | Some s => COk (mono_key name args, (-1)%Z, s_params s, s_ret s)
  | None =>
      match assoc (poly_key name (List.length args)) (f_poly fe) with
      | None => CErr
      | Some sigs => resolve_go fuel fresh (poly_key name (List.length args)) args sigs 0%Z
      end
  end.
Proof. reflexivity. Qed.

Lemma resolve_go_spec fuel fresh pk args : forall sigs i key idx ps rt,
  (forall sg, In sg sigs -> psig_ok fresh sg) -> forallb ty_ok args = true ->
  resolve_go fuel fresh pk args sigs i = COk (key, idx, ps, rt) ->
  key = pk /\ (i <= idx)%Z /\ params_match ps args = true /\ ty_ok rt = true /\
  exists sg s, nth_error sigs (Z.to_nat (idx - i)) = Some sg /\ first_applicable sigs args sg /\
               instantiates s (s_params sg) (s_ret sg) args rt.
Proof.
  induction sigs as [|sg r IH]; intros i key idx ps rt Hs Ha H; [discriminate H|].
  rewrite resolve_go_cons in H. binv H as o ET. pose proof (Hs sg (or_introl Logic.eq_refl)) as Hsg.
  destruct (try_infer_cases fresh sg args Hsg Ha fuel) as [Et|[Et _]]; rewrite Et in ET; inversion ET; subst o; clear Et ET.
  assert (applicable sg args ->
          exists ps' rt', spec_opt fresh sg args = Some (ps', rt') /\ params_match ps' args = true) as Happ.
  { intros [s [rt2 HI]]. destruct (spec_opt_complete fresh sg args Hsg Ha s rt2 HI) as (ps2 & rt3 & E & M & _). eauto. }
  destruct (spec_opt fresh sg args) as [[ps' rt']|] eqn:ES; [destruct (params_match ps' args) eqn:EM|].
  { inversion H; subst. destruct (spec_opt_sound fresh sg args Hsg Ha ps rt ES EM) as [[s HI] K].
    repeat split; try assumption; [lia|]. exists sg, s. rewrite Z.sub_diag.
    split; [reflexivity|]. split; [|exact HI]. apply fa_here. exists s, rt. exact HI. }
  (* this signature is skipped: it is not applicable, and the answer comes from the rest *)
  all: destruct (IH _ _ _ _ _ (fun sg' Hin => Hs sg' (or_intror Hin)) Ha H) as (K & L & M & R & sg' & s & N & F & I).
  all: repeat split; try assumption; [lia|]; exists sg', s.
  all: replace (Z.to_nat (idx - i)) with (S (Z.to_nat (idx - (i + 1)))) by lia.
  all: split; [exact N|]; split; [|exact I]; apply fa_later; [|exact F].
  all: intros A; destruct (Happ A) as (? & ? & E & M'); congruence.
Qed.

Lemma instantiates_transfer s params ret a a' rt :
  eqb_list a a' = true -> instantiates s params ret a rt -> instantiates s params ret a' rt.
Proof.
  intros HE [H1 [H2 [H3 [H4 [H5 H6]]]]]. repeat split; try assumption.
  exact (eqb_tys_trans _ _ _ H4 HE).
Qed.

Lemma first_applicable_transfer sigs a a' sg :
  eqb_list a a' = true -> eqb_list a' a = true ->
  first_applicable sigs a sg -> first_applicable sigs a' sg.
Proof.
  intros E1 E2 H. induction H as [sg rest args [s [rt HI]]|sg rest args sg' Hna Hf IH].
  - apply fa_here. exists s, rt. eapply instantiates_transfer; eauto.
  - apply fa_later; [|apply IH; assumption].
    intros [s [rt HI]]. apply Hna. exists s, rt. eapply instantiates_transfer; eauto.
Qed.

Lemma cmapM_cons {X Y} (f : X -> cres Y) x r :
  cmapM f (x :: r) = let+ y := f x in let+ ys := cmapM f r in COk (y :: ys).
Proof. reflexivity. Qed.

Lemma cmapM_Forall2 {X Y} (f : X -> cres Y) l ys : cmapM f l = COk ys -> Forall2 (fun x y => f x = COk y) l ys.
Proof.
  revert ys. induction l as [|a r IH]; intros ys H.
  - inversion H. constructor.
  - rewrite cmapM_cons in H. binv H as y E. binv H as ys' E2. inversion H; subst. constructor; auto.
Qed.

(* how an induction hypothesis about the elements passes through a successful [cmapM] *)
Lemma cmapM_IH {X Y} (Q : X -> Prop) (R : X -> Y -> Prop) (f : X -> cres Y) l ys :
  Forall Q l -> cmapM f l = COk ys -> (forall x y, Q x -> f x = COk y -> R x y) -> Forall2 R l ys.
Proof. intros HQ E HR. eapply Forall2_imp_Forall_l; [exact HQ|exact HR|exact (cmapM_Forall2 _ _ _ E)]. Qed.

Lemma Forall2_cmapM {X Y} (f : X -> cres Y) l ys : Forall2 (fun x y => f x = COk y) l ys -> cmapM f l = COk ys.
Proof. induction 1 as [|a y r ys' E _ IH]; [reflexivity|]. rewrite cmapM_cons, E, IH. reflexivity. Qed.

Lemma type_assert_ok a b u : type_assert a b = COk u -> ty_eqb a b = true.
Proof. unfold type_assert. destruct (ty_eqb a b); [reflexivity|discriminate]. Qed.

Lemma tenv_assoc G n t : tenv_ok G = true -> assoc n G = Some t -> ty_ok t = true.
Proof.
  unfold tenv_ok. intros H Ha. rewrite forallb_forall in H. apply (H _ (assoc_In _ _ _ Ha)).
Qed.

Lemma args_ok {X} (R : X -> aexpr * ty -> Prop) args aargs :
  Forall2 (fun x z => R x z /\ ty_ok (snd z) = true) args aargs -> forallb ty_ok (map snd aargs) = true.
Proof. induction 1 as [|x z r zs [_ K] _ IH]; simpl; [reflexivity|]. rewrite K, IH. reflexivity. Qed.

Lemma resolve_spec fe fuel fresh name args key idx ps rt :
  fenv_ok fe = true -> fresh_ok fe fresh -> forallb ty_ok args = true ->
  resolve fe fuel fresh name args = COk (key, idx, ps, rt) ->
  ty_ok rt = true /\
  ((exists sg, mono_selected fe name args = Some sg /\ key = mono_key name args /\ idx = (-1)%Z /\
               ps = s_params sg /\ rt = s_ret sg) \/
   (exists sigs sg s, mono_selected fe name args = None /\
      assoc (poly_key name (List.length args)) (f_poly fe) = Some sigs /\ key = poly_key name (List.length args) /\
      (0 <= idx)%Z /\ nth_error sigs (Z.to_nat idx) = Some sg /\ params_match ps args = true /\
      first_applicable sigs args sg /\ instantiates s (s_params sg) (s_ret sg) args rt)).
Proof.
  intros Hfe Hfr Ha ER. rewrite resolve_unfold in ER. unfold mono_selected.
  destruct (assoc (mono_key name args) (f_mono fe)) as [sg|] eqn:Emono.
  - inversion ER; subst. split; [exact (mono_ret_ok fe _ sg Hfe Emono)|]. left. exists sg. auto.
  - destruct (assoc (poly_key name (List.length args)) (f_poly fe)) as [sigs|] eqn:Epoly; [|discriminate ER].
    assert (forall sg, In sg sigs -> psig_ok fresh sg) as HS by (intros sg Hin; eapply psig_ok_intro; eauto).
    destruct (resolve_go_spec _ _ _ _ _ _ _ _ _ _ HS Ha ER) as (-> & L & M & K & sg & s & N & FA & I).
    rewrite Z.sub_0_r in N. split; [exact K|]. right. exists sigs, sg, s. auto 10.
Qed.

Definition is_ident (e : expr) : bool := match e with EIdent _ _ => true | _ => false end.

Section CheckEqs.
  Variables (fe : fenv) (G : tenv) (fuel : nat) (fresh : N).
  Notation chk := (check fe G fuel fresh).

  Lemma check_list_cons p e0 rest :
    chk (EList p (e0 :: rest)) =
    let+ (a0, t0) := chk e0 in
    let+ ars := cmapM (fun x => let+ (a, t) := chk x in let+ _ := type_assert t0 t in COk a) rest in
    COk (AList (TList t0) (a0 :: ars), TList t0).
  Proof. reflexivity. Qed.

  Lemma check_map_cons p k0 v0 rest :
    chk (EMap p ((k0, v0) :: rest)) =
    let+ (ak0, kt) := chk k0 in
    if negb (is_primitive kt) then CErr else
    let+ (av0, vt) := chk v0 in
    let+ ars := cmapM (fun kv =>
                         let+ (ak, t1) := chk (fst kv) in let+ _ := type_assert kt t1 in
                         let+ (av, t2) := chk (snd kv) in let+ _ := type_assert vt t2 in
                         COk (ak, av)) rest in
    COk (AMap (TMap kt vt) ((ak0, av0) :: ars), TMap kt vt).
  Proof. reflexivity. Qed.

  Lemma check_obj_eq p fs :
    chk (EObj p fs) =
    let+ afs := cmapM (fun f => let+ (a, t) := chk (snd f) in COk (rstr (fst f), a, t)) fs in
    let names := map (fun x => fst (fst x)) afs in
    if negb (nodupb names) then CErr else
    let t := TObj (map (fun x => (fst (fst x), snd x)) afs) in
    COk (AObj t (map (fun x => (fst (fst x), snd (fst x))) afs), t).
  Proof. reflexivity. Qed.

  Lemma check_call_other p col callee args :
    is_ident callee = false ->
    chk (ECall p col callee args) =
    let+ aargs := cmapM chk args in
    let+ (ac, ft) := chk callee in
    match ft with
    | TFun fname fps fret =>
        let+ o := try_infer fuel fresh (mkSig fname fps fret false) (map snd aargs) in
        match o with
        | Some (ps, rt) =>
            if params_match ps (map snd aargs)
            then COk (ACall col "" (-1)%Z (TFun fname ps rt) ac (map fst aargs), rt)
            else CErr
        | None => CErr
        end
    | _ => CErr
    end.
  Proof. destruct callee; intros H; try discriminate H; reflexivity. Qed.

  Lemma check_call_ident p col pn n args :
    chk (ECall p col (EIdent pn n) args) =
    let+ aargs := cmapM chk args in
    let+ (key, idx, ps, rt) := resolve fe fuel fresh (rstr n) (map snd aargs) in
    if params_match ps (map snd aargs)
    then COk (ACall col key idx (TFun (rstr n) ps rt) (AIdent (p_col pn) (rstr n)) (map fst aargs), rt)
    else CErr.
  Proof. reflexivity. Qed.
End CheckEqs.

(* The two subscript cases also give the checker's run on the container: C03Proofs needs it to know that the annotated
   container has a list or a map type.  The dynamic call (a callee that is not an identifier) needs no case: its callee
   would have a function type, and no inferred type is one.  C01, C03 and C11 pass the fourteen cases by position, so
   their order is part of the statement. *)
Section CheckInd.
  Variables (fe : fenv) (G : tenv) (fuel : nat) (fresh : N).
  Hypothesis Hfe : fenv_ok fe = true.
  Hypothesis HG : tenv_ok G = true.
  Hypothesis Hfr : fresh_ok fe fresh.
  Variable P : expr -> aexpr -> ty -> Prop.
  Hypothesis P_str : forall p t v, str_value t = Some v -> P (EStr p t) (AStr v) TStr.
  Hypothesis P_num : forall p t n, num_parse t = Some n -> P (ENum p t) (ANum t n) TNum.
  Hypothesis P_time : forall p t, P (ETime p t) (ATime t) TTime.
  Hypothesis P_bool : forall p b, P (EBool p b) (ABool b) TBool.
  Hypothesis P_list_nil : forall p, P (EList p []) (AList (TList TBot) []) (TList TBot).
  Hypothesis P_list : forall p e0 rest a0 t0 ars, P e0 a0 t0 -> ty_ok t0 = true ->
    Forall2 (fun x a => exists t, P x a t /\ ty_ok t = true /\ ty_eqb t0 t = true) rest ars ->
    P (EList p (e0 :: rest)) (AList (TList t0) (a0 :: ars)) (TList t0).
  Hypothesis P_map_nil : forall p, P (EMap p []) (AMap (TMap TBot TBot) []) (TMap TBot TBot).
  Hypothesis P_map : forall p k0 v0 rest ak0 kt av0 vt ars,
    P k0 ak0 kt -> ty_ok kt = true -> is_primitive kt = true -> P v0 av0 vt -> ty_ok vt = true ->
    Forall2 (fun kv akv => exists t1 t2, P (fst kv) (fst akv) t1 /\ ty_ok t1 = true /\ ty_eqb kt t1 = true /\
                                         P (snd kv) (snd akv) t2 /\ ty_ok t2 = true /\ ty_eqb vt t2 = true) rest ars ->
    P (EMap p ((k0, v0) :: rest)) (AMap (TMap kt vt) ((ak0, av0) :: ars)) (TMap kt vt).
  Hypothesis P_obj : forall p fs (afs : list (string * aexpr * ty)),
    Forall2 (fun f z => fst (fst z) = rstr (fst f) /\ P (snd f) (snd (fst z)) (snd z) /\ ty_ok (snd z) = true) fs afs ->
    nodupb (map (fun z => fst (fst z)) afs) = true ->
    ty_ok (TObj (map (fun z => (fst (fst z), snd z)) afs)) = true ->
    P (EObj p fs) (AObj (TObj (map (fun z => (fst (fst z), snd z)) afs)) (map (fun z => (fst (fst z), snd (fst z))) afs))
      (TObj (map (fun z => (fst (fst z), snd z)) afs)).
  Hypothesis P_ident : forall p n t,
    reserved (rstr n) = false -> assoc (rstr n) G = Some t -> P (EIdent p n) (AIdent (p_col p) (rstr n)) t.
  Hypothesis P_call : forall p col pn n args aargs key idx ps rt,
    Forall2 (fun x z => P x (fst z) (snd z) /\ ty_ok (snd z) = true) args aargs ->
    resolve fe fuel fresh (rstr n) (map snd aargs) = COk (key, idx, ps, rt) -> params_match ps (map snd aargs) = true ->
    P (ECall p col (EIdent pn n) args)
      (ACall col key idx (TFun (rstr n) ps rt) (AIdent (p_col pn) (rstr n)) (map fst aargs)) rt.
  Hypothesis P_sub_list : forall p col v i av el ai it,
    check fe G fuel fresh v = COk (av, TList el) ->
    P v av (TList el) -> ty_ok (TList el) = true -> P i ai it -> ty_ok it = true -> ty_eqb it TNum = true ->
    P (ESub p col v i) (ASub col (TList el) av ai) el.
  Hypothesis P_sub_map : forall p col v i av kt vt ai it,
    check fe G fuel fresh v = COk (av, TMap kt vt) ->
    P v av (TMap kt vt) -> ty_ok (TMap kt vt) = true -> P i ai it -> ty_ok it = true -> ty_eqb it kt = true ->
    P (ESub p col v i) (ASub col (TMap kt vt) av ai) vt.
  Hypothesis P_member : forall p col o fname fpos ao fs ft idx,
    P o ao (TObj fs) -> ty_ok (TObj fs) = true -> assoc (rstr fname) fs = Some ft -> index_of (rstr fname) fs = Some idx ->
    P (EMember p col o fname fpos) (AMember col (TObj fs) idx ao (rstr fname)) ft.

  Notation chk := (check fe G fuel fresh).

  Theorem check_ind : forall e a T, chk e = COk (a, T) -> P e a T /\ ty_ok T = true.
  Proof.
    induction e using expr_ind'; intros a T HC; try discriminate HC.
    - simpl in HC. destruct (str_value t) as [v|] eqn:E; inversion HC; subst. auto.
    - simpl in HC. destruct (num_parse t) as [v|] eqn:E; inversion HC; subst. auto.
    - inversion HC; subst. auto.
    - inversion HC; subst. auto.
    - (* list *)
      destruct es as [|e0 rest]; [inversion HC; subst; auto|].
      inversion H as [|? ? He0 Hrest]; subst. rewrite check_list_cons in HC.
      binv HC as [a0 t0] E0. binv HC as ars E1. inversion HC; subst. destruct (He0 _ _ E0) as [H1 H2].
      split; [|exact H2]. apply P_list; try assumption.
      eapply cmapM_IH; [exact Hrest|exact E1|]. intros x ax IHx Hx. cbv beta in Hx.
      binv Hx as [ax' tx] Ex. binv Hx as u Et. apply type_assert_ok in Et. inversion Hx; subst.
      destruct (IHx _ _ Ex). eauto.
    - (* map *)
      destruct kvs as [|[k0 v0] rest]; [inversion HC; subst; auto|].
      inversion H as [|? ? [Hk0 Hv0] Hrest]; subst. rewrite check_map_cons in HC.
      binv HC as [ak0 kt] Ek. destruct (is_primitive kt) eqn:Ep; [|discriminate HC].
      binv HC as [av0 vt] Ev. binv HC as ars E1. inversion HC; subst.
      destruct (Hk0 _ _ Ek) as [K1 K2]. destruct (Hv0 _ _ Ev) as [V1 V2].
      split; [|apply ty_ok_map; assumption]. apply P_map; try assumption.
      eapply cmapM_IH; [exact Hrest|exact E1|]. intros x ax [IH1 IH2] Hx. cbv beta in Hx.
      binv Hx as [a1 t1] Ex1. binv Hx as u1 Et1. binv Hx as [a2 t2] Ex2. binv Hx as u2 Et2.
      apply type_assert_ok in Et1, Et2. inversion Hx; subst.
      destruct (IH1 _ _ Ex1). destruct (IH2 _ _ Ex2). exists t1, t2. auto 10.
    - (* obj *)
      rewrite check_obj_eq in HC. binv HC as afs E1. cbv zeta in HC.
      destruct (nodupb (map (fun x => fst (fst x)) afs)) eqn:End; [|discriminate HC]. inversion HC; subst.
      assert (Forall2 (fun f z => fst (fst z) = rstr (fst f) /\ P (snd f) (snd (fst z)) (snd z) /\ ty_ok (snd z) = true)
                      fs afs) as HF.
      { eapply cmapM_IH; [exact H|exact E1|]. intros f z IHf Hz. cbv beta in Hz.
        binv Hz as [ax tx] Ex. inversion Hz; subst. destruct (IHf _ _ Ex). auto. }
      assert (ty_ok (TObj (map (fun z => (fst (fst z), snd z)) afs)) = true) as KT.
      { apply ty_ok_obj; [rewrite map_map; exact End|]. apply Forall_map.
        eapply Forall2_Forall_r; [exact HF|]. intros f z [_ [_ K]]. exact K. }
      auto.
    - (* ident *)
      simpl in HC. destruct (reserved (rstr n)) eqn:Er; [discriminate HC|].
      destruct (assoc (rstr n) G) as [t|] eqn:Ea; inversion HC; subst.
      split; [auto|eapply tenv_assoc; eauto].
    - (* call *)
      destruct (is_ident e) eqn:Eid.
      + destruct e; try discriminate Eid. rewrite check_call_ident in HC.
        binv HC as aargs E1. binv HC as [[[key idx] ps] rt] ER.
        destruct (params_match ps (map snd aargs)) eqn:EM; [|discriminate HC]. inversion HC; subst.
        assert (Forall2 (fun x z => P x (fst z) (snd z) /\ ty_ok (snd z) = true) args aargs) as HF.
        { eapply cmapM_IH; [exact H|exact E1|]. intros x [ax tx] IHx Ex. exact (IHx _ _ Ex). }
        split; [auto|]. exact (proj1 (resolve_spec _ _ _ _ _ _ _ _ _ Hfe Hfr (args_ok _ _ _ HF) ER)).
      + rewrite check_call_other in HC by assumption. binv HC as aargs E1. binv HC as [ac ft] E2.
        destruct (IHe _ _ E2) as [_ K]. destruct (ty_ok_parts _ K) as [_ [_ C]].
        destruct ft; try discriminate HC. discriminate C.
    - (* sub *)
      simpl in HC. binv HC as [av vt] E1. destruct (IHe1 _ _ E1) as [V1 V2].
      destruct vt; try discriminate HC; binv HC as [ai it] E2; binv HC as u Et; apply type_assert_ok in Et;
        inversion HC; subst; destruct (IHe2 _ _ E2) as [I1 I2].
      + split; [eauto|exact V2].
      + split; [eauto|]. apply ty_ok_map_inv in V2. tauto.
    - (* member *)
      simpl in HC. binv HC as [ao ot] E1. destruct (IHe _ _ E1) as [O1 O2].
      destruct ot; try discriminate HC. destruct (assoc (rstr n) fs) as [ft|] eqn:Ea; [|discriminate HC].
      destruct (index_of (rstr n) fs) as [idx|] eqn:Ei; inversion HC; subst.
      split; [eauto|]. eapply ty_ok_obj_inv; [exact O2|]. eapply assoc_In; eauto.
  Qed.
End CheckInd.

Lemma afs_combine (afs : list (string * aexpr * ty)) :
  map (fun z => (fst (fst z), snd z)) afs = combine (map (fun z => fst (fst z)) afs) (map snd afs).
Proof. induction afs as [|z r IH]; simpl; congruence. Qed.

Section Sound.
  Variables (fe : fenv) (G : tenv) (fuel : nat) (fresh : N).
  Hypothesis Hfe : fenv_ok fe = true.
  Hypothesis HG : tenv_ok G = true.
  Hypothesis Hfr : fresh_ok fe fresh.

  Definition inv_stmt (e : expr) : Prop :=
    forall a T, check fe G fuel fresh e = COk (a, T) -> has_type fe G e T /\ ty_ok T = true.

  Lemma args_has_type args (aargs : list (aexpr * ty)) :
    Forall2 (fun x z => has_type fe G x (snd z) /\ ty_ok (snd z) = true) args aargs ->
    Forall2 (has_type fe G) args (map snd aargs).
  Proof. induction 1 as [|x z r zs [Hx _] _ IH]; constructor; assumption. Qed.

  Lemma check_inv : forall e, inv_stmt e.
  Proof.
    intros e a T HC. revert e a T HC.
    (* ten of the cases are the rule for the same form of expression, as it stands *)
    apply (check_ind fe G fuel fresh Hfe HG Hfr (fun e _ T => has_type fe G e T)); try (intros; econstructor; eassumption).
    - intros p e0 rest a0 t0 ars H0 _ HF.
      apply T_list; [exact H0|]. eapply Forall2_Forall_l; [exact HF|]. intros x ax [t [Hx [_ Et]]]. eauto.
    - intros p k0 v0 rest ak0 kt av0 vt ars Hk _ Hp Hv _ HF.
      apply T_map; try assumption. eapply Forall2_Forall_l; [exact HF|].
      intros kv akv [t1 [t2 [X1 [_ [E1 [X2 [_ E2]]]]]]]. eauto 10.
    - intros p fs afs HF Hnd _.
      assert (map (fun z : string * aexpr * ty => fst (fst z)) afs = map (fun f => rstr (fst f)) fs) as En.
      { clear -HF. induction HF as [|f z r zs [En _] _ IH]; simpl; congruence. }
      rewrite afs_combine, En. apply T_obj; [|rewrite <- En; exact Hnd].
      clear -HF. induction HF as [|f z r zs [_ [Hz _]] _ IH]; constructor; assumption.
    - intros p col pn n args aargs key idx ps rt HF ER EM.
      destruct (resolve_spec _ _ _ _ _ _ _ _ _ Hfe Hfr (args_ok _ _ _ HF) ER)
        as [_ [(sg & Hm & _ & _ & -> & ->)|(sigs & sg & s & Hm & Hp & _ & _ & _ & _ & FA & I)]].
      + eapply T_call_mono; [apply args_has_type; exact HF|exact Hm|exact EM].
      + eapply T_call_poly; [apply args_has_type; exact HF|eassumption..].
  Qed.
End Sound.

Lemma check_sound : forall fe G fuel fresh e a T,
  fenv_ok fe = true -> tenv_ok G = true -> fresh_ok fe fresh ->
  check fe G fuel fresh e = COk (a, T) -> has_type fe G e T.
Proof. intros fe G fuel fresh e a T H1 H2 H3 H. exact (proj1 (check_inv fe G fuel fresh H1 H2 H3 e a T H)). Qed.

Lemma inferred_ok : forall fe G fuel fresh e a T,
  fenv_ok fe = true -> tenv_ok G = true -> fresh_ok fe fresh ->
  check fe G fuel fresh e = COk (a, T) -> slot_free T = true /\ wf_ty T = true.
Proof.
  intros fe G fuel fresh e a T H1 H2 H3 H.
  destruct (ty_ok_parts _ (proj2 (check_inv fe G fuel fresh H1 H2 H3 e a T H))) as [A [B _]]. auto.
Qed.

Lemma ill_typed_rejected : forall fe G fuel fresh e,
  fenv_ok fe = true -> tenv_ok G = true -> fresh_ok fe fresh ->
  (forall T, ~ has_type fe G e T) -> forall a T, check fe G fuel fresh e <> COk (a, T).
Proof. intros fe G fuel fresh e H1 H2 H3 Hn a T H. apply (Hn T). eapply check_sound; eauto. Qed.

Lemma canon_norm : forall t, simple t = true -> canon t = norm t.
Proof.
  induction t using ty_ind'; intros Hs; try reflexivity; try discriminate Hs.
  - simpl in *. f_equal. auto.
  - simpl in *. apply andb_true_iff in Hs. destruct Hs. f_equal; auto.
  - simpl. f_equal. f_equal. apply map_ext_in. intros [n t] Hin. simpl. f_equal.
    rewrite Forall_forall in H. apply (H (n, t) Hin). eapply simple_obj_in; eauto.
  - simpl in *. f_equal. auto.
Qed.

Lemma canon_eq a b : ty_ok a = true -> ty_ok b = true -> ty_eqb a b = true -> canon a = canon b.
Proof.
  intros Ha Hb E. destruct (ty_ok_parts _ Ha) as [_ [A1 A2]]. destruct (ty_ok_parts _ Hb) as [_ [B1 B2]].
  rewrite !canon_norm by assumption. apply eq_structural; assumption.
Qed.

Lemma mono_key_eq name a b : forallb ty_ok a = true -> forallb ty_ok b = true -> eqb_list a b = true ->
  mono_key name a = mono_key name b.
Proof.
  intros Ha Hb E. unfold mono_key. simpl.
  assert (map canon a = map canon b) as EE; [|rewrite EE; reflexivity].
  revert b Ha Hb E. induction a as [|x r IH]; intros [|y s] Ha Hb E; simpl in *; try discriminate E; [reflexivity|].
  apply andb_true_iff in Ha. apply andb_true_iff in Hb. apply andb_true_iff in E. destruct Ha, Hb, E.
  f_equal; [apply canon_eq; assumption|apply IH; assumption].
Qed.

Lemma eqb_primitive a b : ty_eqb a b = true -> is_primitive b = true -> is_primitive a = true.
Proof. intros H1 H2. destruct b; try discriminate H2; destruct a; try discriminate H1; reflexivity. Qed.

Lemma fields_rel_combine (R : ty -> ty -> Prop) : forall names l1 l2,
  NoDup names -> List.length names = List.length l2 -> Forall2 R l1 l2 ->
  fields_rel R (combine names l1) (combine names l2).
Proof.
  induction names as [|n names IH]; intros l1 l2 Hnd Hl HF; [intros k t []|].
  destruct HF as [|a b r1 r2 Hab HF]; [discriminate Hl|].
  inversion Hnd as [|? ? Hnotin Hnd']; subst. simpl in Hl.
  intros k t [E|Hin].
  - inversion E; subst. exists b. simpl. rewrite String.eqb_refl. auto.
  - simpl. destruct (String.eqb_spec k n) as [E|E].
    + subst k. exfalso. apply Hnotin. eapply in_combine_l; eauto.
    + apply (IH r1 r2 Hnd'); [lia|exact HF|exact Hin].
Qed.

Section TypingInv.
  Variables (fe : fenv) (G : tenv).
  Notation has_type := (has_type fe G).

  Lemma has_type_str_inv p t T : has_type (EStr p t) T -> T = TStr /\ exists v, str_value t = Some v.
  Proof. inversion 1; eauto. Qed.

  Lemma has_type_num_inv p t T : has_type (ENum p t) T -> T = TNum /\ exists n, num_parse t = Some n.
  Proof. inversion 1; eauto. Qed.

  Lemma has_type_list_inv p es T : has_type (EList p es) T ->
    (es = [] /\ T = TList TBot) \/
    exists e0 rest t0, es = e0 :: rest /\ T = TList t0 /\ has_type e0 t0 /\
      Forall (fun e => exists t, has_type e t /\ ty_eqb t0 t = true) rest.
  Proof. inversion 1; subst; eauto 10. Qed.

  Lemma has_type_map_inv p kvs T : has_type (EMap p kvs) T ->
    (kvs = [] /\ T = TMap TBot TBot) \/
    exists k0 v0 rest kt vt, kvs = (k0, v0) :: rest /\ T = TMap kt vt /\
      has_type k0 kt /\ is_primitive kt = true /\ has_type v0 vt /\
      Forall (fun kv => exists t1 t2, has_type (fst kv) t1 /\ ty_eqb kt t1 = true /\
                                      has_type (snd kv) t2 /\ ty_eqb vt t2 = true) rest.
  Proof. inversion 1; subst; [left; auto|right]. do 5 eexists. eauto 10. Qed.

  Lemma has_type_obj_inv p fs T : has_type (EObj p fs) T ->
    exists ts, T = TObj (combine (map (fun f => rstr (fst f)) fs) ts) /\
      Forall2 (fun f t => has_type (snd f) t) fs ts /\ nodupb (map (fun f => rstr (fst f)) fs) = true.
  Proof. inversion 1; eauto. Qed.

  Lemma has_type_ident_inv p n T : has_type (EIdent p n) T -> reserved (rstr n) = false /\ assoc (rstr n) G = Some T.
  Proof. inversion 1; auto. Qed.

  Lemma has_type_call_inv p col c args T : has_type (ECall p col c args) T ->
    exists pn n argtys, c = EIdent pn n /\ Forall2 has_type args argtys /\
      ((exists sg, mono_selected fe (rstr n) argtys = Some sg /\ tys_eqb (s_params sg) argtys = true /\ T = s_ret sg) \/
       (exists sigs sg s, mono_selected fe (rstr n) argtys = None /\
          assoc (poly_key (rstr n) (List.length argtys)) (f_poly fe) = Some sigs /\
          first_applicable sigs argtys sg /\ instantiates s (s_params sg) (s_ret sg) argtys T)).
  Proof. inversion 1; subst; do 3 eexists; (split; [reflexivity|split; [eassumption|]]); [left|right]; eauto 10. Qed.

  Lemma has_type_sub_inv p col v i T : has_type (ESub p col v i) T ->
    exists it, has_type i it /\
      ((has_type v (TList T) /\ ty_eqb it TNum = true) \/ (exists kt, has_type v (TMap kt T) /\ ty_eqb it kt = true)).
  Proof. inversion 1; subst; eauto 10. Qed.

  Lemma has_type_member_inv p col o fname fpos T : has_type (EMember p col o fname fpos) T ->
    exists fs, has_type o (TObj fs) /\ assoc (rstr fname) fs = Some T.
  Proof. inversion 1; eauto. Qed.
End TypingInv.

Lemma eqb_map_inv a k v : ty_eqb a (TMap k v) = true ->
  exists k' v', a = TMap k' v' /\ ty_eqb k' k = true /\ ty_eqb v' v = true.
Proof. destruct a; simpl; intros H; try discriminate H. apply andb_true_iff in H. eauto. Qed.

(* a, b are the types the checker inferred of two parts, a', b' those of the derivation *)
Lemma type_assert_eq a a' b b' :
  ty_eqb a a' = true -> ty_eqb a' b' = true -> ty_eqb b b' = true -> ty_ok b = true -> ty_ok b' = true ->
  type_assert a b = COk tt.
Proof.
  intros E1 E2 E3 Kb Kb'. unfold type_assert.
  rewrite (eqb_trans a a' b E1 (eqb_trans a' b' b E2 (ok_sym _ _ Kb Kb' E3))). reflexivity.
Qed.

Definition settles {Y} (g : nat -> cres Y) (Q : Y -> Prop) : Prop :=
  exists y, Q y /\ eventually (fun fuel => g fuel = COk y).

Lemma settles_ret {Y} (y : Y) (Q : Y -> Prop) : Q y -> settles (fun _ => COk y) Q.
Proof. intros H. exists y. split; [exact H|apply ev_all; reflexivity]. Qed.

Lemma settles_bind {X Y} (g : nat -> cres X) (k : nat -> X -> cres Y) Q R :
  settles g Q -> (forall x, Q x -> settles (fun fuel => k fuel x) R) ->
  settles (fun fuel => cbind (g fuel) (k fuel)) R.
Proof.
  intros (x & Hx & H1) Hk. destruct (Hk x Hx) as (y & Hy & H2). exists y. split; [exact Hy|].
  eapply ev_mono; [|exact (ev_and _ _ H1 H2)]. intros fuel [E1 E2]. rewrite E1. exact E2.
Qed.

Lemma settles_ext {Y} (g g' : nat -> cres Y) Q : (forall fuel, g fuel = g' fuel) -> settles g' Q -> settles g Q.
Proof. intros E (y & Hy & H). exists y. split; [exact Hy|]. eapply ev_mono; [|exact H]. intros fuel. rewrite E. auto. Qed.

Lemma settles_imp {Y} (g : nat -> cres Y) (Q R : Y -> Prop) : (forall y, Q y -> R y) -> settles g Q -> settles g R.
Proof. intros HQ (y & Hy & H). exists y. auto. Qed.

Lemma cmapM_settles {X Y Z} (g : nat -> X -> cres Y) (Q1 : X -> Y -> Prop) (Q2 : Z -> Y -> Prop) l zs :
  Forall2 (fun x z => settles (fun fuel => g fuel x) (fun y => Q1 x y /\ Q2 z y)) l zs ->
  settles (fun fuel => cmapM (g fuel) l) (fun ys => Forall2 Q1 l ys /\ Forall2 Q2 zs ys).
Proof.
  induction 1 as [|x z l zs Hx _ IH].
  - apply settles_ret. split; constructor.
  - eapply settles_ext; [intros fuel; apply cmapM_cons|].
    eapply settles_bind; [exact Hx|]. intros y [Hy1 Hy2]. eapply settles_bind; [exact IH|]. intros ys [H1 H2].
    apply settles_ret. split; constructor; assumption.
Qed.

Lemma cmapM_settles_all {X Y} (g : nat -> X -> cres Y) l :
  Forall (fun x => settles (fun fuel => g fuel x) (fun _ => True)) l ->
  settles (fun fuel => cmapM (g fuel) l) (fun _ => True).
Proof.
  intros H. eapply settles_imp; [|apply (cmapM_settles g (fun _ _ => True) (fun (_ : X) _ => True) l l), Forall2_diag].
  - auto.
  - eapply Forall_impl; [|exact H]. intros x Hx. eapply settles_imp; [|exact Hx]. auto.
Qed.

Lemma try_infer_settles fresh sg args :
  psig_ok fresh sg -> forallb ty_ok args = true ->
  settles (fun fuel => try_infer fuel fresh sg args) (fun o => o = spec_opt fresh sg args).
Proof.
  intros Hsg Ha. exists (spec_opt fresh sg args). split; [reflexivity|].
  exists (infer_bound fresh (s_params sg) (s_ret sg) args). intros fuel Hb.
  destruct (try_infer_cases fresh sg args Hsg Ha fuel) as [E|[_ Hlow]]; [exact E|lia].
Qed.

Lemma resolve_go_step fresh pk args sg r i Q :
  psig_ok fresh sg -> forallb ty_ok args = true ->
  settles (fun fuel => match spec_opt fresh sg args with
                       | Some (ps, rt) => if params_match ps args then COk (pk, i, ps, rt)
                                          else resolve_go fuel fresh pk args r (i + 1)%Z
                       | None => resolve_go fuel fresh pk args r (i + 1)%Z
                       end) Q ->
  settles (fun fuel => resolve_go fuel fresh pk args (sg :: r) i) Q.
Proof.
  intros Hsg Ha H. eapply settles_ext; [intros fuel; apply resolve_go_cons|].
  eapply settles_bind; [apply try_infer_settles; assumption|]. intros o ->. exact H.
Qed.

Lemma resolve_go_settles fresh pk args : forall sigs sg s rt',
  (forall sg, In sg sigs -> psig_ok fresh sg) -> forallb ty_ok args = true ->
  first_applicable sigs args sg -> instantiates s (s_params sg) (s_ret sg) args rt' ->
  forall i, settles (fun fuel => resolve_go fuel fresh pk args sigs i)
                       (fun r => params_match (snd (fst r)) args = true /\ ty_eqb (snd r) rt' = true).
Proof.
  intros sigs sg s rt' Hs Ha HF. revert Hs.
  induction HF as [sg rest args Happ|sg rest args sg' Hna Hf IH]; intros Hs HI i;
    pose proof (Hs sg (or_introl Logic.eq_refl)) as Hsg; apply resolve_go_step; try assumption.
  - destruct (spec_opt_complete fresh sg args Hsg Ha s rt' HI) as [ps [rt [E [M T]]]].
    rewrite E, M. apply settles_ret. auto.
  - pose proof (IH Ha (fun sg0 Hin => Hs sg0 (or_intror Hin)) HI (i + 1)%Z) as IH'.
    destruct (spec_opt fresh sg args) as [[ps' rt2]|] eqn:ES; [|exact IH'].
    destruct (params_match ps' args) eqn:EM; [|exact IH'].
    exfalso. apply Hna. destruct (spec_opt_sound fresh sg args Hsg Ha ps' rt2 ES EM) as [[s' HI'] _].
    exists s', rt2. exact HI'.
Qed.

Section Complete.
  Variables (fe : fenv) (G : tenv) (fresh : N).
  Hypothesis Hfe : fenv_ok fe = true.
  Hypothesis HG : tenv_ok G = true.
  Hypothesis Hfr : fresh_ok fe fresh.

  Definition accepts (e : expr) (T' : ty) : Prop :=
    settles (fun fuel => check fe G fuel fresh e) (fun z => ty_eqb (snd z) T' = true /\ ty_ok (snd z) = true).

  (* Completeness goes by induction on the expression and inversion of the derivation: [has_type] nests [Forall] and
     [Forall2], so its own induction principle says nothing of the parts.  [ty_ok T'] is a conclusion because
     [type_assert_eq] needs it of the derivation's types to turn [ty_eqb] round. *)
  Definition comp_stmt (e : expr) : Prop := forall T', has_type fe G e T' -> ty_ok T' = true /\ accepts e T'.

  (* the [ty_ok] half comes free: at the first fuel where the run succeeds, soundness ([check_inv]) gives it *)
  Lemma accepts_intro e T' :
    settles (fun fuel => check fe G fuel fresh e) (fun z => ty_eqb (snd z) T' = true) -> accepts e T'.
  Proof.
    intros ([a T] & E & f0 & H). exists (a, T). repeat split; [exact E| |exists f0; exact H].
    exact (proj2 (check_inv fe G f0 fresh Hfe HG Hfr e a T (H f0 (Nat.le_refl _)))).
  Qed.

  Lemma accepts_const e a T :
    (forall fuel, check fe G fuel fresh e = COk (a, T)) -> ty_ok T = true -> ty_ok T = true /\ accepts e T.
  Proof.
    intros E K. split; [exact K|]. apply accepts_intro. eapply settles_ext; [exact E|]. apply settles_ret, ok_refl. exact K.
  Qed.

  Lemma args_complete args argtys : Forall comp_stmt args -> Forall2 (has_type fe G) args argtys ->
    forallb ty_ok argtys = true /\
    settles (fun fuel => cmapM (check fe G fuel fresh) args)
      (fun aargs => eqb_list (map snd aargs) argtys = true /\ forallb ty_ok (map snd aargs) = true).
  Proof.
    intros H HF.
    assert (Forall2 (fun x t => ty_ok t = true /\ accepts x t) args argtys) as HC.
    { eapply Forall2_imp_Forall_l; [exact H| |exact HF]. intros x t Hx Ht. exact (Hx t Ht). }
    split.
    - clear -HC. induction HC as [|x t r ts [K _] _ IH]; simpl; [reflexivity|]. rewrite K, IH. reflexivity.
    - eapply settles_imp;
        [|apply (cmapM_settles _ (fun _ _ => True) (fun t z => ty_eqb (snd z) t = true /\ ty_ok (snd z) = true) args argtys)].
      + intros aargs [_ HQ]. clear -HQ.
        induction HQ as [|t z ts zs [E K] _ [IH1 IH2]]; simpl; [auto|]. rewrite E, K, IH1, IH2. auto.
      + eapply Forall2_imp; [|exact HC]. intros x t [_ C]. eapply settles_imp; [|exact C]. auto.
  Qed.

  Lemma check_comp : forall e, comp_stmt e.
  Proof.
    induction e using expr_ind'; intros T' HT.
    - (* str *) destruct (has_type_str_inv _ _ _ _ _ HT) as [-> [v E]].
      apply (accepts_const _ (AStr v)); [|reflexivity]. intros fuel. simpl. rewrite E. reflexivity.
    - (* num *) destruct (has_type_num_inv _ _ _ _ _ HT) as [-> [v E]].
      apply (accepts_const _ (ANum t v)); [|reflexivity]. intros fuel. simpl. rewrite E. reflexivity.
    - inversion HT; subst. apply (accepts_const _ (ATime t)); reflexivity.
    - inversion HT; subst. apply (accepts_const _ (ABool b)); reflexivity.
    - (* list *)
      destruct (has_type_list_inv _ _ _ _ _ HT) as [[-> ->]|(e0 & rest & t0 & -> & -> & H0 & Hrest)].
      { apply (accepts_const _ (AList (TList TBot) [])); reflexivity. }
      inversion H as [|? ? He0 Hr]; subst. destruct (He0 t0 H0) as [K0 C0]. split; [exact K0|].
      apply accepts_intro. eapply settles_ext; [intros fuel; apply check_list_cons|].
      eapply settles_bind; [exact C0|]. intros [a0 t0c] [E0 K0c]. eapply settles_bind.
      { apply cmapM_settles_all. rewrite Forall_forall in *. intros x Hin.
        destruct (Hrest x Hin) as [t [Hx Et]]. destruct (Hr x Hin t Hx) as [Kt Cx].
        eapply settles_bind; [exact Cx|]. intros [a tc] [E1 Ktc].
        rewrite (type_assert_eq t0c t0 tc t E0 Et E1 Ktc Kt). apply settles_ret. exact I. }
      intros ars _. apply settles_ret. exact E0.
    - (* map *)
      destruct (has_type_map_inv _ _ _ _ _ HT)
        as [[-> ->]|(k0 & v0 & rest & kt & vt & -> & -> & Hk0 & Hp & Hv0 & Hrest)].
      { apply (accepts_const _ (AMap (TMap TBot TBot) [])); reflexivity. }
      inversion H as [|? ? [Hk Hv] Hr]; subst. simpl in Hk, Hv.
      destruct (Hk kt Hk0) as [Kk Ck]. destruct (Hv vt Hv0) as [Kv Cv]. split; [apply ty_ok_map; assumption|].
      apply accepts_intro. eapply settles_ext; [intros fuel; apply check_map_cons|].
      eapply settles_bind; [exact Ck|]. intros [ak ktc] [Ek Kkc]. cbv beta iota. rewrite (eqb_primitive ktc kt Ek Hp).
      eapply settles_bind; [exact Cv|]. intros [av vtc] [Ev Kvc]. eapply settles_bind.
      { apply cmapM_settles_all. rewrite Forall_forall in *. intros x Hin.
        destruct (Hrest x Hin) as [t1 [t2 [Hx1 [Et1 [Hx2 Et2]]]]].
        destruct (Hr x Hin) as [Hx1' Hx2']. destruct (Hx1' t1 Hx1) as [Kt1 C1]. destruct (Hx2' t2 Hx2) as [Kt2 C2].
        eapply settles_bind; [exact C1|]. intros [a1 tc1] [A1 A2].
        rewrite (type_assert_eq ktc kt tc1 t1 Ek Et1 A1 A2 Kt1). cbn [cbind].
        eapply settles_bind; [exact C2|]. intros [a2 tc2] [B1 B2].
        rewrite (type_assert_eq vtc vt tc2 t2 Ev Et2 B1 B2 Kt2). apply settles_ret. exact I. }
      intros ars _. apply settles_ret. simpl. apply andb_true_iff. split; assumption.
    - (* obj *)
      destruct (has_type_obj_inv _ _ _ _ _ HT) as (ts & -> & HF & Hnd).
      assert (Forall2 (fun f t => ty_ok t = true /\ accepts (snd f) t) fs ts) as HC.
      { eapply Forall2_imp_Forall_l; [exact H| |exact HF]. intros f t Hf Ht. exact (Hf t Ht). }
      pose proof (Forall2_len _ _ _ HF) as Hlen. split.
      { apply ty_ok_obj; [rewrite map_fst_combine by (rewrite map_length; exact Hlen); exact Hnd|].
        apply Forall_forall. intros [n t] Hin. apply in_combine_r in Hin.
        pose proof (Forall2_Forall_r _ (fun t => ty_ok t = true) _ _ HC (fun f t Hft => proj1 Hft)) as Kts.
        rewrite Forall_forall in Kts. auto. }
      apply accepts_intro. eapply settles_ext; [intros fuel; apply check_obj_eq|]. eapply settles_bind.
      { apply (cmapM_settles _ (fun f z => fst (fst z) = rstr (fst f)) (fun t z => ty_eqb (snd z) t = true) fs ts).
        eapply Forall2_imp; [|exact HC]. intros f t [_ C]. eapply settles_bind; [exact C|].
        intros [a T] [E _]. apply settles_ret. split; [reflexivity|exact E]. }
      intros afs [HQ1 HQ2]. cbv zeta.
      assert (map (fun z : string * aexpr * ty => fst (fst z)) afs = map (fun f => rstr (fst f)) fs) as En.
      { clear -HQ1. induction HQ1; simpl; congruence. }
      rewrite En, Hnd. apply settles_ret. simpl snd. rewrite afs_combine, En. apply ty_eqb_obj_spec. split.
      + rewrite !combine_length, !map_length, (Forall2_len _ _ _ HQ2). reflexivity.
      + apply fields_rel_combine; [apply nodupb_NoDup; exact Hnd|rewrite map_length; exact Hlen|].
        clear -HQ2. induction HQ2; constructor; assumption.
    - (* ident *)
      destruct (has_type_ident_inv _ _ _ _ _ HT) as [Hr Ha]. pose proof (tenv_assoc _ _ _ HG Ha) as KT.
      apply (accepts_const _ (AIdent (p_col p) (rstr n))); [|exact KT]. intros fuel. simpl. rewrite Hr, Ha. reflexivity.
    - (* call *)
      destruct (has_type_call_inv _ _ _ _ _ _ _ HT)
        as (pn & n & argtys & -> & HF & [(sg & Hm & Hp & ->)|(sigs & sg & s & Hm & Hpoly & HFA & HI)]);
        destruct (args_complete args argtys H HF) as [Kargs Cargs]; unfold mono_selected in Hm.
      + pose proof (mono_ret_ok fe _ sg Hfe Hm) as KT.
        split; [exact KT|]. apply accepts_intro. eapply settles_ext; [intros fuel; apply check_call_ident|].
        eapply settles_bind; [exact Cargs|]. intros aargs [E2 E3].
        eapply settles_ext; [intros fuel; rewrite resolve_unfold, (mono_key_eq (rstr n) (map snd aargs) argtys E3 Kargs E2), Hm; reflexivity|].
        assert (params_match (s_params sg) (map snd aargs) = true) as EM
          by exact (eqb_tys_trans _ argtys _ Hp (ok_list_sym _ _ E3 Kargs E2)).
        simpl. rewrite EM. apply settles_ret, ok_refl. exact KT.
      + assert (forall sg, In sg sigs -> psig_ok fresh sg) as HS by (intros sg' Hin; eapply psig_ok_intro; eauto).
        assert (In sg sigs) as Hsg.
        { clear -HFA. induction HFA; [left; reflexivity|right; assumption]. }
        destruct (HS sg Hsg) as [Hs [Hk _]]. destruct (sig_ok_parts _ Hs) as [_ [R1 R2]].
        split; [eapply instantiates_ok; eauto|].
        apply accepts_intro. eapply settles_ext; [intros fuel; apply check_call_ident|].
        eapply settles_bind; [exact Cargs|]. intros aargs [E2 E3].
        pose proof (ok_list_sym _ _ E3 Kargs E2) as E2'.
        eapply settles_bind with (Q := fun r => params_match (snd (fst r)) (map snd aargs) = true /\ ty_eqb (snd r) T' = true).
        * eapply settles_ext.
          { intros fuel. rewrite resolve_unfold, (mono_key_eq (rstr n) (map snd aargs) argtys E3 Kargs E2), Hm,
              (eqb_list_length _ _ E2), Hpoly. reflexivity. }
          apply (resolve_go_settles fresh _ (map snd aargs) sigs sg s T' HS E3).
          -- eapply first_applicable_transfer; eauto.
          -- eapply instantiates_transfer; eauto.
        * intros [[[key idx] ps] rt] [M ET]. simpl in M, ET. rewrite M. apply settles_ret. exact ET.
    - (* sub *)
      destruct (has_type_sub_inv _ _ _ _ _ _ _ HT) as (it & Hi & [[Hv Et]|(kt & Hv & Et)]);
        destruct (IHe1 _ Hv) as [Kv Cv]; destruct (IHe2 _ Hi) as [Ki Ci].
      + split; [exact Kv|]. apply accepts_intro. simpl.
        eapply settles_bind; [exact Cv|]. intros [av vtc] [Ev Kvc]. destruct vtc; simpl in Ev; try discriminate Ev.
        eapply settles_bind; [exact Ci|]. intros [ai itc] [Ei Kic].
        rewrite (type_assert_eq itc it TNum TNum Ei Et Logic.eq_refl Logic.eq_refl Logic.eq_refl).
        apply settles_ret. exact Ev.
      + destruct (ty_ok_map_inv _ _ Kv) as [Kkt KT]. split; [exact KT|]. apply accepts_intro. simpl.
        eapply settles_bind; [exact Cv|]. intros [av vtc] [Ev Kvc].
        simpl in Ev. destruct (eqb_map_inv _ _ _ Ev) as (ktc & etc & -> & Ek & Ee). destruct (ty_ok_map_inv _ _ Kvc) as [Kkc _].
        eapply settles_bind; [exact Ci|]. intros [ai itc] [Ei Kic].
        rewrite (type_assert_eq itc it ktc kt Ei Et Ek Kkc Kkt). apply settles_ret. exact Ee.
    - (* member *)
      destruct (has_type_member_inv _ _ _ _ _ _ _ _ HT) as (fs & Ho & Ha).
      destruct (IHe _ Ho) as [Ko Co]. pose proof (ty_ok_obj_inv _ _ _ Ko (assoc_In _ _ _ Ha)) as KT. split; [exact KT|].
      apply accepts_intro. simpl. eapply settles_bind; [exact Co|]. intros [ao ot] [Eo Koc].
      destruct ot; try (simpl in Eo; discriminate Eo).
      pose proof (ok_sym _ _ Koc Ko Eo) as Eo'. apply ty_eqb_obj_spec in Eo'. destruct Eo' as [_ Hrel].
      destruct (Hrel _ _ (assoc_In _ _ _ Ha)) as [tc [Hac Etc]].
      destruct (assoc_index_of _ _ _ Hac) as [idx Hidx]. rewrite Hac, Hidx. apply settles_ret.
      apply ok_sym; [exact KT|eapply ty_ok_obj_inv; [exact Koc|eapply assoc_In; eauto]|exact Etc].
    - inversion HT.
    - inversion HT.
    - inversion HT.
    - inversion HT.
  Qed.
End Complete.

Lemma check_complete_stable : forall fe G fresh e T',
  fenv_ok fe = true -> tenv_ok G = true -> fresh_ok fe fresh ->
  has_type fe G e T' ->
  ty_ok T' = true /\
  exists a T, ty_eqb T T' = true /\ ty_ok T = true /\
    exists fuel0, forall fuel, (fuel0 <= fuel)%nat -> check fe G fuel fresh e = COk (a, T).
Proof.
  intros fe G fresh e T' H1 H2 H3 HT.
  destruct (check_comp fe G fresh H1 H2 H3 e T' HT) as [K ([a T] & [E K'] & f0 & C)].
  split; [exact K|]. exists a, T. split; [exact E|]. split; [exact K'|]. exists f0. exact C.
Qed.

Lemma check_complete : forall fe G fresh e T',
  fenv_ok fe = true -> tenv_ok G = true -> fresh_ok fe fresh ->
  has_type fe G e T' ->
  exists fuel0, forall fuel, (fuel0 <= fuel)%nat ->
    exists a T, check fe G fuel fresh e = COk (a, T) /\ ty_eqb T T' = true.
Proof.
  intros fe G fresh e T' H1 H2 H3 HT.
  destruct (check_complete_stable fe G fresh e T' H1 H2 H3 HT) as (_ & a & T & E & _ & f0 & C).
  exists f0. intros fuel Hf. exists a, T. split; [exact (C fuel Hf)|exact E].
Qed.

(* with fuel enough for both derivations the checker infers one type, equal to either *)
Lemma has_type_unique : forall fe G fresh e T1 T2,
  fenv_ok fe = true -> tenv_ok G = true -> fresh_ok fe fresh ->
  has_type fe G e T1 -> has_type fe G e T2 -> ty_eqb T1 T2 = true.
Proof.
  intros fe G fresh e T1 T2 Hfe HG Hfr H1 H2.
  destruct (check_complete_stable fe G fresh e T1 Hfe HG Hfr H1) as (K1 & a & T & E1 & K & f1 & C1).
  destruct (check_complete_stable fe G fresh e T2 Hfe HG Hfr H2) as (_ & a' & T' & E2 & _ & f2 & C2).
  specialize (C1 (Nat.max f1 f2) (Nat.le_max_l _ _)). specialize (C2 (Nat.max f1 f2) (Nat.le_max_r _ _)).
  rewrite C1 in C2. injection C2 as _ <-.
  exact (eqb_trans T1 T T2 (ok_sym _ _ K K1 E1) E2).
Qed.

(* Why [fenv_ok] needs its two extra clauses (hand-built tables that satisfy [sig_ok] everywhere) *)

(* 1. a monomorphic entry whose result is a type variable: `f()` is accepted with the type 'a (so the inferred type
      is not variable-free), and `g(f(), 1)` is accepted although no ground instantiation of g's parameters exists *)
Example mono_entry_must_be_ground :
  let p0 := pos_unknown in
  let fe := mkFenv [(mono_key "f" [], mkSig "f" [] (TVar "a") false)]
                   [(poly_key "g" 2, [mkSig "g" [TVar "b"; TNum] TNum false])] in
  let e1 := ECall p0 0 (EIdent p0 [102%N]) [] in
  let e2 := ECall p0 0 (EIdent p0 [103%N]) [e1; ENum p0 [49%N]] in
  forallb (fun ks => sig_ok (snd ks)) (f_mono fe) = true /\
  (exists a, check fe [] 50 1000 e1 = COk (a, TVar "a")) /\
  (exists a, check fe [] 50 1000 e2 = COk (a, TNum)).
Proof. vm_compute. repeat split; eexists; reflexivity. Qed.

(* 2. a type variable in map-key position of a polymorphic result: h : ('a) -> map['a, num] applied to [1] is
      typable by the rules (result map[list[num], num], not a well-formed type) but the implementation panics
      (types.Map asserts a keyable key): the model returns CErr, here at fuel 50 and 500. *)
Example poly_result_needs_no_var_key :
  let p0 := pos_unknown in
  let fe := mkFenv [] [(poly_key "h" 1, [mkSig "h" [TVar "a"] (TMap (TVar "a") TNum) false])] in
  let e := ECall p0 0 (EIdent p0 [104%N]) [EList p0 [ENum p0 [49%N]]] in
  forallb (fun ks => forallb sig_ok (snd ks)) (f_poly fe) = true /\
  check fe [] 50 1000 e = CErr /\ check fe [] 500 1000 e = CErr.
Proof. vm_compute. repeat split. Qed.

(* 3. the same panic in an EARLIER overload that is not applicable (k1) hides a later applicable one (k2) *)
Example earlier_overload_panics :
  let p0 := pos_unknown in
  let k1 := mkSig "k" [TVar "a"; TMap (TVar "a") TNum] (TMap (TVar "a") TNum) false in
  let k2 := mkSig "k" [TVar "c"; TVar "d"] TNum false in
  let e := ECall p0 0 (EIdent p0 [107%N]) [EList p0 [ENum p0 [49%N]]; ESub p0 0 (EList p0 []) (ENum p0 [49%N])] in
  forallb sig_ok [k1; k2] = true /\
  check (mkFenv [] [(poly_key "k" 2, [k1; k2])]) [] 50 1000 e = CErr /\
  (exists a, check (mkFenv [] [(poly_key "k" 2, [k2])]) [] 50 1000 e = COk (a, TNum)).
Proof. vm_compute. repeat split. eexists; reflexivity. Qed.

Print Assumptions builtin_table_ok.
Print Assumptions check_sound.
Print Assumptions check_complete.
Print Assumptions ill_typed_rejected.
Print Assumptions inferred_ok.
Print Assumptions register_mono.
Print Assumptions register_poly.
