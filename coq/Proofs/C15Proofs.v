(* Proofs for Props/C15.v: host data converts to well-formed values whose type depends only on the Go shape.  The two
   inductions over [val_of] are in ConvFacts.v; here are what conversion computes on given inputs, and the corollaries. *)
From Coq Require Import List String Ascii Bool Arith NArith ZArith.
From Yae Require Import Base.Sexp Model.Ty Model.Unify Model.Num Model.Lexer Model.Val Model.Render Model.ValSpec
  Model.Conv Model.ConvSpec Proofs.ListFacts Proofs.ConvFacts.
Import ListNotations.
Local Open Scope nat_scope.
Local Open Scope list_scope.

Lemma conv_fuel_S : conv_fuel = S 399.
Proof. reflexivity. Qed.

Lemma type_agrees : forall ops t v x T,
  ValOf ops t v = Some x -> TypeOf ops t v = Some T -> T = val_type x.
Proof.
  intros ops t v x T Hv Ht. rewrite TypeOf_eq, Hv in Ht. congruence.
Qed.

Lemma depth_limit : forall ops f t v lv, (maxLevel < lv)%nat -> val_of ops f t v lv = None.
Proof.
  intros ops f t v lv H. destruct f as [|f]; [reflexivity|].
  rewrite val_of_S. apply Nat.ltb_lt in H. rewrite H. reflexivity.
Qed.

Lemma scalars : forall ops z n b s bits sec ns,
  ValOf ops GInt (HInt z) = Some (VNum (of_Z ops z)) /\ ValOf ops GUint (HUint n) = Some (VNum (of_Z ops (Z.of_N n))) /\
  ValOf ops GBool (HBool b) = Some (VBool b) /\ ValOf ops GString (HString s) = Some (VStr s) /\
  ValOf ops GFloat (HFloat bits) = Some (VNum bits) /\ ValOf ops GTime (HTime sec ns) = Some (VTime sec ns).
Proof.
  intros. rewrite !ValOf_unfold, !unwrap_top by exact I. repeat split; reflexivity.
Qed.

Lemma Forall2_det {X Y} (g : X -> option Y) : forall l ys1 ys2,
  Forall2 (fun a y => g a = Some y) l ys1 -> Forall2 (fun a y => g a = Some y) l ys2 -> ys1 = ys2.
Proof.
  induction l as [|a r IH]; intros ys1 ys2 H1 H2; inversion H1; inversion H2; subst; [reflexivity|].
  f_equal; [congruence|auto].
Qed.

Lemma seq_mixed_rejected : forall ops e vs x0 xr,
  Forall2 (fun a y => val_of ops (conv_fuel - 1) e a 1 = Some y) vs (x0 :: xr) ->
  all_eq_type (val_type x0) (x0 :: xr) = false ->
  ValOf ops (GSlice e) (HSeq vs) = None.
Proof.
  intros ops e vs x0 xr HF Hne. destruct (ValOf ops (GSlice e) (HSeq vs)) as [x|] eqn:H; [exfalso|reflexivity].
  rewrite ValOf_unfold, unwrap_top in H by exact I. cbn [is_nil conv_body] in H.
  destruct (conv_seq_some _ _ _ _ _ _ _ H) as [[E _]|[y0 [yr [HF' [Hall _]]]]].
  - subst vs. inversion HF.
  - pose proof (Forall2_det _ _ _ _ HF HF') as E. injection E as <- <-. congruence.
Qed.

Lemma errors : forall ops t,
  ValOf ops t HNil = None /\ ValOf ops GOther HOther = None /\
  (forall e a b xa xb, val_of ops (conv_fuel - 1) e a 1 = Some xa -> val_of ops (conv_fuel - 1) e b 1 = Some xb ->
                       ty_eqb (val_type xa) (val_type xb) = false -> ValOf ops (GSlice e) (HSeq [a; b]) = None).
Proof.
  intros ops t. rewrite !ValOf_unfold.
  split; [reflexivity|]. split; [rewrite unwrap_top by exact I; reflexivity|].
  intros e a b xa xb Ha Hb Hne. apply (seq_mixed_rejected ops e [a; b] xa [xb]); [repeat constructor; assumption|].
  cbn [all_eq_type forallb]. rewrite Hne, andb_false_r. reflexivity.
Qed.

Lemma seq_order : forall ops e vs xs t,
  ValOf ops (GSlice e) (HSeq vs) = Some (VList t xs) -> vs <> [] ->
  Forall2 (fun v x => val_of ops (conv_fuel - 1) e v 1 = Some x) vs xs.
Proof.
  intros ops e vs xs t H Hne. rewrite ValOf_unfold, unwrap_top in H by exact I. cbn [is_nil conv_body] in H.
  destruct (conv_seq_some _ _ _ _ _ _ _ H) as [[E _]|[x0 [xr [HF [_ E]]]]]; [contradiction|].
  injection E as _ ->. exact HF.
Qed.

Lemma valof_wf : forall ops t v x, ValOf ops t v = Some x -> val_ok x = true /\ fun_free x = true.
Proof. exact ValOf_good. Qed.

Lemma shape_only : forall ops t v x T,
  iface_free t = true -> shape_stable conv_fuel t v false = true ->
  ValOf ops t v = Some x -> type_of conv_fuel t 0 = Some T ->
  ty_eqb (val_type x) T = true.
Proof.
  intros ops t v x T Hi Hs Hv HT.
  destruct (ValOf_sty ops _ _ _ Hv Hi (ex_intro _ conv_fuel Hs)) as [T' [HT' [_ E]]].
  rewrite (type_of_sty _ _ _ _ HT) in HT'. injection HT' as <-. exact E.
Qed.

Print Assumptions valof_wf.
Print Assumptions type_agrees.
Print Assumptions shape_only.
Print Assumptions errors.
Print Assumptions depth_limit.
Print Assumptions scalars.
Print Assumptions seq_order.
